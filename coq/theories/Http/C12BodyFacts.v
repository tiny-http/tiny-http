(* Http/C12BodyFacts.v — C12(b), requests with a body: when the last request's body (pre-read small
   body, or exact-length body) has completely arrived, what the application obtains and what the
   client receives do not depend on the bytes that follow the body. Two runs on  body ++ t1  and
   body ++ t2  are compared step by step. *)
From TH Require Import Base.Bytes Base.BytesFacts Http.Request Http.Body Http.BodyFacts Http.Serve
  Http.ServeFacts Http.ServeStreamFacts Http.C12ServeFacts.
From Coq Require Import Lia.

(* bytes the reader can still hand out *)
Definition avail (r : breader) : nat :=
  match r with BBuffered d => List.length d | BLimited rem => N.to_nat rem | _ => 0%nat end.

(* the two streams agree on what the reader may still consume *)
Definition sim (r : breader) (s1 s2 : stream) : Prop :=
  match r with
  | BEmpty | BBuffered _ => True
  | BLimited rem => exists b t1 t2, sbytes s1 = b ++ t1 /\ sbytes s2 = b ++ t2 /\ len b = rem
  | _ => False
  end.

Definition is_data_progress (x : rres) (r r' : breader) : Prop :=
  match x with
  | RData d => d <> [] /\ (avail r' < avail r)%nat
  | RBlock => False
  | _ => (avail r' <= avail r)%nat
  end.

Lemma body_read_any_sim c n r s1 s2 a1 a2 : sim r s1 s2 ->
  exists x r' s1' s2' a1' a2',
    body_read_any c n r s1 a1 = (x, r', s1', a1') /\ body_read_any c n r s2 a2 = (x, r', s2', a2') /\
    sim r' s1' s2' /\ is_data_progress x r r'.
Proof.
  intros Hs. destruct r as [|d|rem|rem fin|]; cbn [sim] in Hs; [| | |destruct Hs|destruct Hs].
  - destruct n; do 6 eexists; repeat split; cbn; lia.
  - destruct n as [|n]; [|destruct d as [|d0 d]]; cbn [body_read_any body_read_zero body_read];
      do 6 eexists; repeat split; cbn [is_data_progress avail]; try lia; [discriminate|].
    rewrite skipn_length. cbn [List.length]. lia.
  - destruct Hs as (b & t1 & t2 & H1 & H2 & Hb).
    destruct n as [|n]; cbn [body_read_any body_read_zero body_read];
      (destruct (N.eqb_spec rem 0) as [Hr|Hr]; [do 6 eexists; repeat split; cbn; lia|]).
    + rewrite H1, H2. destruct b as [|b0 b]; [unfold len in Hb; cbn in Hb; lia|]. cbn [app].
      destruct (discard c _ rem s1 a1) as [s1' a1'], (discard c _ rem s2 a2) as [s2' a2'].
      do 6 eexists; repeat split; cbn; lia.
    + set (k := N.to_nat (N.min (N.of_nat (S n)) rem)).
      assert (Hk : (0 < k <= List.length b)%nat) by (unfold k, len in *; lia).
      rewrite (stream_eq s1 _ _ H1 eq_refl), (stream_eq s2 _ _ H2 eq_refl), !src_read_app by lia.
      assert (Hl : List.length (firstn k b) = k) by (rewrite firstn_length; lia).
      do 6 eexists; repeat split; cbn [sim is_data_progress avail sbytes].
      * exists (skipn k b), t1, t2. repeat split. unfold len in *. rewrite skipn_length, Hl. lia.
      * intros E. rewrite E in Hl. cbn in Hl. lia.
      * unfold len. rewrite Hl. lia.
Qed.

Lemma take_sim c : forall f1 f2 m n r s1 s2 a1 a2 acc, sim r s1 s2 ->
  (avail r < f1)%nat -> (avail r < f2)%nat ->
  exists acc' e r' s1' s2' a1' a2',
    take c f1 m n r s1 a1 acc = (acc', e, r', s1', a1') /\
    take c f2 m n r s2 a2 acc = (acc', e, r', s2', a2') /\
    sim r' s1' s2' /\ (avail r' <= avail r)%nat /\ e <> EndBlock.
Proof.
  induction f1 as [|f1 IH]; intros f2 m n r s1 s2 a1 a2 acc Hs H1 H2; [lia|].
  destruct f2 as [|f2]; [lia|]. cbn [take]. destruct (m =? 0)%N.
  - do 7 eexists. repeat split; auto. discriminate.
  - destruct (body_read_any_sim c (N.to_nat (N.min m (N.of_nat n))) r s1 s2 a1 a2 Hs)
      as (x & r' & s1' & s2' & a1' & a2' & E1 & E2 & Hs' & Hp).
    rewrite E1, E2. destruct x as [d| | |]; cbn [is_data_progress] in Hp; [|..|destruct Hp].
    + destruct Hp as [_ Hp].
      destruct (IH f2 (m - len d)%N n r' s1' s2' a1' a2' (d :: acc) Hs') as
        (acc' & e & r'' & s1'' & s2'' & a1'' & a2'' & T1 & T2 & Hs'' & Ha & He); try lia.
      exists acc', e, r'', s1'', s2'', a1'', a2''. repeat split; auto. lia.
    + do 7 eexists. repeat split; auto. discriminate.
    + do 7 eexists. repeat split; auto. discriminate.
Qed.

Lemma sim_fuel r s1 s2 : sim r s1 s2 ->
  (avail r < S (List.length (sbytes s1) + match r with BBuffered d => List.length d | _ => 0 end))%nat /\
  (avail r < S (List.length (sbytes s2) + match r with BBuffered d => List.length d | _ => 0 end))%nat.
Proof.
  destruct r as [|d|rem|rem fin|]; cbn [sim avail]; try lia.
  intros (b & t1 & t2 & -> & -> & Hb). unfold len in Hb. rewrite !app_length. lia.
Qed.

Lemma do_reads_sim c rs : forall r s1 s2 a1 a2 acc e0, sim r s1 s2 -> e0 <> EndBlock ->
  exists acc' e r' s1' s2' a1' a2',
    do_reads c rs r s1 a1 acc e0 = (acc', e, r', s1', a1') /\
    do_reads c rs r s2 a2 acc e0 = (acc', e, r', s2', a2') /\
    sim r' s1' s2' /\ e <> EndBlock.
Proof.
  induction rs as [|[m n] rs IH]; intros r s1 s2 a1 a2 acc e0 Hs He0; cbn [do_reads].
  - do 7 eexists. auto.
  - destruct (sim_fuel r s1 s2 Hs) as [F1 F2].
    destruct (take_sim c _ _ m n r s1 s2 a1 a2 acc Hs F1 F2)
      as (acc' & e & r' & s1' & s2' & a1' & a2' & T1 & T2 & Hs' & _ & He).
    rewrite T1, T2. destruct e; [apply IH; [exact Hs'|discriminate]|..|destruct (He eq_refl)].
    all: do 7 eexists; repeat split; auto.
Qed.

Theorem handle_sim c date act m ver hs ex rd s1 s2 a1 a2 : sim rd s1 s2 ->
  let h1 := handle c date act m ver hs ex rd s1 a1 in
  let h2 := handle c date act m ver hs ex rd s2 a2 in
  h_w100 h1 = h_w100 h2 /\ h_m100 h1 = h_m100 h2 /\ h_wfin h1 = h_wfin h2 /\ h_mfin h1 = h_mfin h2 /\
  h_got h1 = h_got h2 /\ h_end h1 = h_end h2 /\ h_end h1 <> EndBlock.
Proof.
  intros Hs. cbv zeta.
  destruct (do_reads_sim c (a_reads act) rd s1 s2 a1 a2 [] EndCount Hs)
    as (got & e & rd2 & s1' & s2' & a1' & a2' & R1 & R2 & Hs' & He); [discriminate|].
  destruct (do_reads_sim c (finish_reads (a_finish act)) rd2 s1' s2' a1' a2' got e Hs' He)
    as (got3 & e3 & rd3 & s1'' & s2'' & a1'' & a2'' & U1 & U2 & _ & He3).
  rewrite (handle_eq c date act m ver hs ex rd s1 a1 _ _ _ _ _ _ _ _ _ _ R1 U1),
          (handle_eq c date act m ver hs ex rd s2 a2 _ _ _ _ _ _ _ _ _ _ R2 U2).
  cbn [h_w100 h_m100 h_wfin h_mfin h_got h_end]. repeat split; auto.
Qed.

Definition complete_body (kind : body_kind) (body : bytes) : Prop :=
  match kind with
  | KEmpty => body = []
  | KBuffered n | KLimited n => len body = n
  | _ => False
  end.

Lemma built_of_complete kind body t1 e1 a1 t2 e2 a2 : complete_body kind body ->
  exists rd s1 s2 a1' a2',
    built_of kind (body ++ t1) e1 a1 = inl (Some (rd, s1, a1')) /\
    built_of kind (body ++ t2) e2 a2 = inl (Some (rd, s2, a2')) /\ sim rd s1 s2.
Proof.
  destruct kind as [| |n|n|]; cbn [complete_body]; intros Hc.
  1, 5: destruct Hc.
  - subst body. exists BEmpty, (mkS t1 e1), (mkS t2 e2), a1, a2. repeat split.
  - subst n. exists (BBuffered body), (mkS (skipn (N.to_nat (len body)) (body ++ t1)) e1),
           (mkS (skipn (N.to_nat (len body)) (body ++ t2)) e2), (len body :: a1), (len body :: a2).
    rewrite !built_of_buffered, !firstn_len by (rewrite len_app; lia). repeat split.
  - exists (BLimited n), (mkS (body ++ t1) e1), (mkS (body ++ t2) e2), a1, a2. repeat split.
    exists body, t1, t2. auto.
Qed.

Theorem nothing_after_last_body c date head body m url ver hs kind bl ex :
  read_head c head = HeadOk m url ver hs [] -> framing c hs = FrOk kind bl ex ->
  complete_body kind body -> ver_gt_11 ver = false -> last_request ver hs = true ->
  forall script dflt t1 e1 t2 e2,
    let o1 := serve c date script dflt (head ++ body ++ t1) e1 in
    let o2 := serve c date script dflt (head ++ body ++ t2) e2 in
    o_reqs o1 = o_reqs o2 /\ o_wire o1 = o_wire o2 /\ o_modelled o1 = o_modelled o2 /\
    o_end o1 = CClosed /\ o_end o2 = CClosed /\ List.length (o_reqs o1) = 1%nat.
Proof.
  intros Hh Hf Hc Hv Hl script dflt t1 e1 t2 e2. cbv zeta. unfold serve.
  pose proof (read_head_app c head m url ver hs [] (body ++ t1) Hh) as H1.
  pose proof (read_head_app c head m url ver hs [] (body ++ t2) Hh) as H2. cbn [app] in H1, H2.
  destruct (built_of_complete kind body t1 e1 [] t2 e2 [] Hc) as (rd & s1 & s2 & al1 & al2 & B1 & B2 & Hs).
  destruct (handle_sim c date (act_of script dflt) m ver hs ex rd s1 s2 al1 al2 Hs)
    as (E1 & E2 & E3 & E4 & E5 & E6 & E7).
  rewrite (last_closes c date script dflt (mkS (head ++ body ++ t1) e1) [] [] [] true m url ver hs
             (body ++ t1) kind bl ex rd s1 al1 H1 Hf B1 Hv _ Hl E7).
  rewrite E6 in E7.
  rewrite (last_closes c date script dflt (mkS (head ++ body ++ t2) e2) [] [] [] true m url ver hs
             (body ++ t2) kind bl ex rd s2 al2 H2 Hf B2 Hv _ Hl E7).
  cbn [o_reqs o_wire o_end o_modelled]. rewrite E1, E2, E3, E4, E5, E6. repeat split; reflexivity.
Qed.
