(* Http/C12ServeFacts.v — C12 at the level of serve_loop: after a request that ends the connection
   nothing more is read as a request and the server closes; otherwise the loop goes on with the
   rest of the stream. *)
From TH Require Import Base.Bytes Base.BytesFacts Http.Response Http.Request Http.Body Http.Serve
  Http.ServeFacts Http.ServeStreamFacts.

Section OneStep.
Variables (c : cfg) (date : bytes) (script : list action) (dflt : action) (st : stream)
          (wire : bytes) (reqs : list delivered) (al : allocs) (ok : bool)
          (m url : bytes) (ver : version) (hs : list header) (rest : bytes)
          (kind : body_kind) (bl : option N) (ex : bool) (rd : breader) (st1 : stream) (al1 : allocs).
Hypothesis Hh : read_head c (sbytes st) = HeadOk m url ver hs rest.
Hypothesis Hf : framing c hs = FrOk kind bl ex.
Hypothesis Hb : built_of kind rest (seof st) al = inl (Some (rd, st1, al1)).
Hypothesis Hv : ver_gt_11 ver = false.
Local Notation h := (handle c date (act_of script dflt) m ver hs ex rd st1 al1).
Local Notation d := (mkD m url ver hs bl (pieces_bytes (h_got h)) (h_end h)).

Lemma loop_served f :
  serve_loop c date (S f) script dflt st wire reqs al ok =
  if match h_end h with EndBlock => true | _ => false end
  then mkO (frev (d :: reqs)) (wire ++ h_w100 h) CHang (h_al3 h) (ok && h_m100 h && h_mfin h)
  else if last_request ver hs
  then mkO (frev (d :: reqs)) (wire ++ h_w100 h ++ h_wfin h) CClosed (h_al4 h)
           (ok && h_m100 h && h_mfin h)
  else serve_loop c date f (script_tl script) dflt (h_st4 h) (wire ++ h_w100 h ++ h_wfin h) (d :: reqs)
                  (h_al4 h) (ok && h_m100 h && h_mfin h).
Proof.
  rewrite serve_loop_S, (step_delivered _ _ _ _ _ _ _ _ _ _ _ _ _ _ Hh _ _ _ _ _ _ Hf Hb),
    (deliver_served _ _ _ _ _ _ _ _ _ _ _ _ _ _ _ _ Hv).
  destruct (match h_end h with EndBlock => true | _ => false end); [|destruct (last_request ver hs)];
    reflexivity.
Qed.

Lemma last_closes f : last_request ver hs = true -> h_end h <> EndBlock ->
  serve_loop c date (S f) script dflt st wire reqs al ok =
  mkO (frev reqs ++ [d]) (wire ++ h_w100 h ++ h_wfin h) CClosed (h_al4 h) (ok && h_m100 h && h_mfin h).
Proof.
  intros Hl He. rewrite loop_served, Hl, frev_cons.
  destruct (h_end h); [..|destruct (He eq_refl)]; reflexivity.
Qed.

Lemma keepalive_continues f : last_request ver hs = false -> h_end h <> EndBlock ->
  serve_loop c date (S f) script dflt st wire reqs al ok =
  serve_loop c date f (script_tl script) dflt (h_st4 h) (wire ++ h_w100 h ++ h_wfin h) (d :: reqs)
             (h_al4 h) (ok && h_m100 h && h_mfin h).
Proof.
  intros Hl He. rewrite loop_served, Hl.
  destruct (h_end h); [..|destruct (He eq_refl)]; reflexivity.
Qed.
End OneStep.

Fixpoint reads_end (rs : list (N * nat)) (e : read_end) : read_end :=
  match rs with
  | [] => e
  | (m, _) :: t => if (m =? 0)%N then reads_end t EndCount else EndEof
  end.

Lemma reads_end_not_block rs e : e <> EndBlock -> reads_end rs e <> EndBlock.
Proof.
  revert e; induction rs as [|[m n] t IH]; intros e He; cbn [reads_end]; [exact He|].
  destruct (m =? 0)%N; [apply IH|]; discriminate.
Qed.

Lemma take_empty c f m n st al acc :
  take c (S f) m n BEmpty st al acc = (acc, if (m =? 0)%N then EndCount else EndEof, BEmpty, st, al).
Proof.
  cbn [take]. destruct (m =? 0)%N; [reflexivity|].
  destruct (N.to_nat (N.min m (N.of_nat n))); reflexivity.
Qed.

Lemma do_reads_empty c rs : forall st al acc e,
  do_reads c rs BEmpty st al acc e = (acc, reads_end rs e, BEmpty, st, al).
Proof.
  induction rs as [|[m n] t IH]; intros st al acc e; cbn [do_reads reads_end]; [reflexivity|].
  rewrite take_empty. destruct (m =? 0)%N; [apply IH|reflexivity].
Qed.

Definition end_empty (act : action) : read_end :=
  match a_finish act with FUpgrade _ => EndEof | _ => reads_end (a_reads act) EndCount end.

Lemma end_empty_not_block act : end_empty act <> EndBlock.
Proof.
  unfold end_empty. destruct (a_finish act); try (apply reads_end_not_block); discriminate.
Qed.

Lemma handle_empty c date act m ver hs ex st1 al1 :
  handle c date act m ver hs ex BEmpty st1 al1 =
  mkHd (fst (w100_of date act ex ver hs)) (snd (w100_of date act ex ver hs))
       (fst (fin_wire date (a_finish act) m ver hs)) (snd (fin_wire date (a_finish act) m ver hs))
       al1 [] (end_empty act) st1 al1.
Proof.
  rewrite (handle_eq c date act m ver hs ex BEmpty st1 al1 _ _ _ _ _ _ _ _ _ _
             (do_reads_empty c _ _ _ _ _) (do_reads_empty c _ _ _ _ _)).
  unfold end_empty. destruct (a_finish act); reflexivity.
Qed.

Definition d_empty (act : action) m url ver hs bl : delivered := mkD m url ver hs bl [] (end_empty act).
Definition wire_empty date (act : action) m ver hs ex : bytes :=
  fst (w100_of date act ex ver hs) ++ fst (fin_wire date (a_finish act) m ver hs).
Definition ok_empty date (act : action) m ver hs ex : bool :=
  snd (w100_of date act ex ver hs) && snd (fin_wire date (a_finish act) m ver hs).

Section NoBody.
Variables (c : cfg) (date : bytes) (script : list action) (dflt : action) (st : stream)
          (wire : bytes) (reqs : list delivered) (al : allocs) (ok : bool)
          (m url : bytes) (ver : version) (hs : list header) (rest : bytes) (bl : option N) (ex : bool).
Hypothesis Hh : read_head c (sbytes st) = HeadOk m url ver hs rest.
Hypothesis Hf : framing c hs = FrOk KEmpty bl ex.
Hypothesis Hv : ver_gt_11 ver = false.
Local Notation act := (act_of script dflt).

Lemma no_body_closes f : last_request ver hs = true ->
  serve_loop c date (S f) script dflt st wire reqs al ok =
  mkO (frev reqs ++ [d_empty act m url ver hs bl]) (wire ++ wire_empty date act m ver hs ex) CClosed al
      (ok && ok_empty date act m ver hs ex).
Proof.
  intros Hl. rewrite (last_closes _ _ _ _ _ _ _ _ _ _ _ _ _ _ _ _ _ _ _ _ Hh Hf eq_refl Hv f Hl);
    rewrite handle_empty; [|apply end_empty_not_block].
  cbn [h_end h_got h_w100 h_wfin h_al4 h_m100 h_mfin]. unfold d_empty, wire_empty, ok_empty.
  now rewrite andb_assoc.
Qed.

Lemma no_body_continues f : last_request ver hs = false ->
  serve_loop c date (S f) script dflt st wire reqs al ok =
  serve_loop c date f (script_tl script) dflt (mkS rest (seof st)) (wire ++ wire_empty date act m ver hs ex)
             (d_empty act m url ver hs bl :: reqs) al (ok && ok_empty date act m ver hs ex).
Proof.
  intros Hl. rewrite (keepalive_continues _ _ _ _ _ _ _ _ _ _ _ _ _ _ _ _ _ _ _ _ Hh Hf eq_refl Hv f Hl);
    rewrite handle_empty; [|apply end_empty_not_block].
  cbn [h_end h_got h_w100 h_wfin h_al4 h_m100 h_mfin h_st4]. unfold d_empty, wire_empty, ok_empty.
  now rewrite andb_assoc.
Qed.
End NoBody.

(* t and e do not occur in the outcome *)
Theorem no_body_last_outcome c date req m url ver hs bl ex script dflt t e :
  read_head c req = HeadOk m url ver hs [] -> framing c hs = FrOk KEmpty bl ex ->
  ver_gt_11 ver = false -> last_request ver hs = true ->
  serve c date script dflt (req ++ t) e =
  mkO [d_empty (act_of script dflt) m url ver hs bl] (wire_empty date (act_of script dflt) m ver hs ex)
      CClosed [] (ok_empty date (act_of script dflt) m ver hs ex).
Proof.
  intros Hh Hf Hv Hl. unfold serve.
  exact (no_body_closes c date script dflt (mkS (req ++ t) e) [] [] [] true m url ver hs t bl ex
           (read_head_app c req m url ver hs [] t Hh) Hf Hv _ Hl).
Qed.
