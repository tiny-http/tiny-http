(* Props/C13.v — what the application receives depends only on the byte stream the client sent,
   never on how it was cut into segments (nor on what the BufReader happened to hold).
   States are BufReader-over-socket states (Http/ReaderOp.v); `contents` is the logical stream.
   Two well-formed states with equal contents and equal end-of-stream flags (same_stream,
   Http/C13Facts.v) are "the same bytes, another segmentation / buffering".
   Pauses: the code sets no read timeout (no set_read_timeout / set_nonblocking anywhere in
   /repo/src), so the TimedOut => 408 arm of ClientConnection::next is unreachable and a pause has
   no representation: a reader with nothing pending waits (LBlock / SBBlock / EndBlock), and
   c13_read_line_pause_invariant says that the wait leaves no trace in the result. *)
From TH Require Import Base.Bytes Base.BytesFacts Http.Response Http.Request Http.Body Http.Serve
                       Http.ReaderOp Http.ReaderOpFacts Http.ReaderOpLimitedFacts Http.ReaderOpHeadFacts
                       Http.ReaderOpChunkFacts Http.ReaderOpChunkLoopFacts Http.ReaderOpChunkModelFacts
                       Http.C13Facts.
From Coq Require Import Lia.
Open Scope char_scope.

(* the line reader (client.rs:80-102) *)
Theorem c13_read_line_segmentation_invariant : forall br1 br2, same_stream br1 br2 ->
  fst (read_line_op br1) = fst (read_line_op br2) /\
  same_stream (snd (read_line_op br1)) (snd (read_line_op br2)).
Proof. exact (same_stream_of_fn _ _ read_line_op_fn). Qed.
Print Assumptions c13_read_line_segmentation_invariant.

(* and the common value is the model's: Request.read_line of the logical stream *)
Theorem c13_read_line_agrees_with_model : forall br, wf br ->
  match read_line (contents br) with
  | Some (l, rest) => exists br', read_line_op br = (LLine l, br') /\ lands br br' rest
  | None => exists br' acc p, read_line_op br = (if br_eof br then LEof else LBlock acc p, br') /\
                              lands br br' [] /\
                              forall more, read_line (contents br ++ more) = read_line_aux acc p more
  end.
Proof. exact read_line_bridge. Qed.
Print Assumptions c13_read_line_agrees_with_model.

(* pauses: a reader that ran out of segments in the middle of a line and is resumed, with its
   locals, on the segments that arrive later returns what a reader that found all the segments
   there from the start returns *)
Theorem c13_read_line_pause_invariant : forall br acc p br1 segs, wf br ->
  Forall (fun g => g <> []) segs ->
  read_line_op br = (LBlock acc p, br1) ->
  exists br2,
    read_line_op_aux (br_fuel (br_feed segs br1)) acc p (br_feed segs br1)
      = (fst (read_line_op (br_feed segs br)), br2) /\
    same_stream br2 (snd (read_line_op (br_feed segs br))).
Proof.
  intros br acc p br1 segs Hwf Hsegs H. pose proof (holds_now br Hwf) as Hbr.
  destruct (read_line_resume br _ _ acc p br1 segs Hbr Hsegs H) as (br2 & -> & Hbr2).
  destruct (read_line_op_fn _ _ _ (holds_br_feed segs br _ _ Hbr Hsegs)) as (br3 & -> & Hbr3).
  exists br2. split; [reflexivity|]. exact (holds_same_stream _ _ _ _ Hbr2 Hbr3).
Qed.
Print Assumptions c13_read_line_pause_invariant.

(* the small-body loop of new_request *)
Theorem c13_small_body_segmentation_invariant : forall n br1 br2, same_stream br1 br2 ->
  fst (read_small_body_op n br1) = fst (read_small_body_op n br2) /\
  same_stream (snd (read_small_body_op n br1)) (snd (read_small_body_op n br2)).
Proof. intros n. exact (same_stream_of_fn _ _ (read_small_body_op_fn n)). Qed.
Print Assumptions c13_small_body_segmentation_invariant.

(* the common value: firstn / skipn of the stream, as Serve.serve_loop has it for KBuffered *)
Theorem c13_small_body_agrees_with_model : forall n br, wf br ->
  if Nat.leb n (List.length (contents br))
  then exists br', read_small_body_op n br = (SBFull (firstn n (contents br)), br') /\
                   lands br br' (skipn n (contents br))
  else exists br', read_small_body_op n br =
                     (if br_eof br then SBEof (contents br) else SBBlock (contents br), br') /\
                   lands br br' [].
Proof.
  intros n br Hwf. destruct (computes_lands _ _ (read_small_body_op_fn n) br Hwf) as (br' & Hr & Hl).
  unfold small_body_fn in Hr, Hl. destruct (Nat.leb n (List.length (contents br)));
    cbn [fst snd app] in Hr, Hl; exists br'; auto.
Qed.
Print Assumptions c13_small_body_agrees_with_model.

(* EqualReader: the application's loop "read until m bytes or the end"
   br1/br2: two segmentations; sz1/sz2: two policies for the size of the buffer offered at each
   read (any function of the pieces obtained so far). The pieces may be cut differently, their
   concatenation, the way the loop ends, the count left and the stream left are the same. *)
Theorem c13_limited_segmentation_invariant : forall sz1 sz2 m rem br1 br2,
  same_stream br1 br2 -> (forall h, 0 < sz1 h) -> (forall h, 0 < sz2 h) ->
  exists acc1 acc2 en rem' br1' br2',
    limited_take sz1 m rem br1 = Some (acc1, en, rem', br1') /\
    limited_take sz2 m rem br2 = Some (acc2, en, rem', br2') /\
    pieces_bytes acc1 = pieces_bytes acc2 /\ same_stream br1' br2'.
Proof.
  intros sz1 sz2 m rem br1 br2 Hs Hs1 Hs2. destruct (same_stream_holds br1 br2 Hs) as (H1 & H2).
  destruct (limited_take_fn_spec sz1 m rem br1 _ _ H1 Hs1) as (a1 & b1 & R1 & P1 & Hb1).
  destruct (limited_take_fn_spec sz2 m rem br2 _ _ H2 Hs2) as (a2 & b2 & R2 & P2 & Hb2).
  eexists a1, a2, _, _, b1, b2. split; [exact R1|]. split; [exact R2|]. split; [congruence|]. exact (holds_same_stream _ _ _ _ Hb1 Hb2).
Qed.
Print Assumptions c13_limited_segmentation_invariant.

(* the common value is the first min(m, rem) bytes of the stream when they are there ... *)
Theorem c13_limited_firstn : forall sz m rem br, wf br -> (forall h, 0 < sz h) ->
  (N.min m rem <= len (contents br))%N ->
  exists acc' br', limited_take sz m rem br =
                     Some (acc', if (m <=? rem)%N then EndCount else EndEof, (rem - N.min m rem)%N, br') /\
                   pieces_bytes acc' = firstn (N.to_nat (N.min m rem)) (contents br) /\
                   lands br br' (skipn (N.to_nat (N.min m rem)) (contents br)).
Proof.
  intros sz m rem br Hwf Hsz Hle. pose proof (holds_now br Hwf) as Hbr.
  destruct (limited_take_fn_spec sz m rem br _ _ Hbr Hsz) as (acc' & br' & Hr & Hp & Hbr').
  unfold limited_take_fn in Hr, Hp, Hbr'. destruct (N.leb_spec (N.min m rem) (len (contents br))); [|lia].
  exists acc', br'. split; [exact Hr|]. split; [exact Hp|]. exact (holds_lands _ _ _ _ _ Hbr Hbr').
Qed.
Print Assumptions c13_limited_firstn.

(* ... and in every case what the full-read loop Body.take of the model obtains *)
Theorem c13_limited_agrees_with_model : forall c sz n m rem br al,
  wf br -> (forall h, 0 < sz h) -> 0 < n ->
  exists acc1 en rem1 br' acc2 r' al',
    limited_take sz m rem br = Some (acc1, en, rem1, br') /\
    take c (S (List.length (contents br))) m n (BLimited rem) (st_of br) al []
      = (acc2, en, r', st_of br', al') /\
    pieces_bytes acc1 = pieces_bytes acc2 /\
    (r' = BLimited rem1 \/ r' = BEmpty) /\ wf br'.
Proof. exact limited_take_agrees_with_model. Qed.
Print Assumptions c13_limited_agrees_with_model.

(* EqualReader::drop leaves the stream at the same place for every segmentation *)
Theorem c13_limited_discard_segmentation_invariant : forall c rem br1 br2, same_stream br1 br2 ->
  exists br1' br2', limited_discard_op c (br_fuel br1) rem br1 = Some br1' /\
                    limited_discard_op c (br_fuel br2) rem br2 = Some br2' /\
                    same_stream br1' br2' /\ contents br1' = skipn (N.to_nat rem) (contents br1).
Proof.
  intros c rem br1 br2 Hs. destruct (same_stream_holds br1 br2 Hs) as (H1 & H2).
  destruct (limited_discard_op_fn c _ rem br1 _ _ H1 (br_fuel_gt _ _ _ H1)) as (b1 & R1 & Hb1).
  destruct (limited_discard_op_fn c _ rem br2 _ _ H2 (br_fuel_gt _ _ _ H2)) as (b2 & R2 & Hb2).
  exists b1, b2. split; [exact R1|]. split; [exact R2|].
  split; [exact (holds_same_stream _ _ _ _ Hb1 Hb2)|apply Hb1].
Qed.
Print Assumptions c13_limited_discard_segmentation_invariant.

(* a whole head (client.rs:106-137) *)
Theorem c13_head_segmentation_invariant : forall c br1 br2, same_stream br1 br2 ->
  fst (read_head_op c br1) = fst (read_head_op c br2) /\
  same_stream (snd (read_head_op c br1)) (snd (read_head_op c br2)).
Proof. intros c. exact (same_stream_of_fn _ _ (read_head_op_fn c)). Qed.
Print Assumptions c13_head_segmentation_invariant.

(* the common value is Request.read_head of the logical stream, result and remaining stream *)
Theorem c13_head_agrees_with_model : forall c br, wf br ->
  exists br', read_head_op c br = (head_op_of (read_head c (contents br)) (br_eof br), br') /\
              wf br' /\ br_eof br' = br_eof br /\
              match read_head c (contents br) with
              | HeadOk _ _ _ _ rest => contents br' = rest
              | HeadEof => contents br' = []
              | _ => True
              end.
Proof.
  intros c br Hwf. destruct (computes_lands _ _ (read_head_op_fn c) br Hwf) as (br' & Hr & (L1 & L2 & L3)).
  destruct (head_fn_read_head c (contents br) (br_eof br)) as (H1 & H2).
  exists br'. rewrite Hr, H1. repeat split; auto.
  destruct (read_head c (contents br)); auto; congruence.
Qed.
Print Assumptions c13_head_agrees_with_model.

(* head, framing and pre-read body of one request *)
Theorem c13_small_request_segmentation_invariant : forall c br1 br2, same_stream br1 br2 ->
  fst (read_small_request_op c br1) = fst (read_small_request_op c br2) /\
  same_stream (snd (read_small_request_op c br1)) (snd (read_small_request_op c br2)).
Proof. intros c. exact (same_stream_of_fn _ _ (read_small_request_op_fn c)). Qed.
Print Assumptions c13_small_request_segmentation_invariant.

Theorem c13_small_request_agrees_with_model : forall c br m url ver hs rest n bl ex, wf br ->
  read_head c (contents br) = HeadOk m url ver hs rest ->
  framing c hs = FrOk (KBuffered n) bl ex ->
  (n <= len rest)%N ->
  exists br', read_small_request_op c br = (RqOk m url ver hs (firstn (N.to_nat n) rest), br') /\
              lands br br' (skipn (N.to_nat n) rest).
Proof.
  intros c br m url ver hs rest n bl ex Hwf Hh Hfr Hn.
  pose proof (computes_lands _ _ (read_small_request_op_fn c) br Hwf) as H.
  unfold small_request_fn in H. rewrite (head_fn_ok _ _ _ _ _ _ _ _ Hh) in H. cbn [after_head] in H.
  rewrite Hfr in H. unfold small_body_fn in H.
  destruct (PeanoNat.Nat.leb_spec (N.to_nat n) (List.length rest)); [exact H|unfold len in Hn; lia].
Qed.
Print Assumptions c13_small_request_agrees_with_model.

(* a request without body (KEmpty) *)
Theorem c13_empty_request_agrees_with_model : forall c br m url ver hs rest bl ex, wf br ->
  read_head c (contents br) = HeadOk m url ver hs rest ->
  framing c hs = FrOk KEmpty bl ex ->
  exists br', read_small_request_op c br = (RqOk m url ver hs [], br') /\ lands br br' rest.
Proof.
  intros c br m url ver hs rest bl ex Hwf Hh Hfr.
  pose proof (computes_lands _ _ (read_small_request_op_fn c) br Hwf) as H.
  unfold small_request_fn in H. rewrite (head_fn_ok _ _ _ _ _ _ _ _ Hh) in H. cbn [after_head] in H.
  rewrite Hfr in H. exact H.
Qed.
Print Assumptions c13_empty_request_agrees_with_model.

(* the whole sequence of requests of a connection (requests without body or with a pre-read
   body, until one closes the connection or something else is met): heads, bodies, the reason the
   sequence ends and the stream left are the same; the loop's fuel never runs out *)
Theorem c13_requests_segmentation_invariant : forall c br1 br2, same_stream br1 br2 ->
  fst (read_requests c br1) = fst (read_requests c br2) /\
  same_stream (snd (read_requests c br1)) (snd (read_requests c br2)) /\
  ~ In RqFuel (fst (read_requests c br1)).
Proof.
  intros c br1 br2 Hs. destruct (same_stream_of_fn _ _ (read_requests_fn c) br1 br2 Hs) as (A & B).
  split; [exact A|]. split; [exact B|]. destruct (same_stream_holds br1 br2 Hs) as (H1 & _).
  destruct (read_requests_fn c br1 _ _ H1) as (b & -> & _). apply requests_fn_no_fuel. lia.
Qed.
Print Assumptions c13_requests_segmentation_invariant.

(* chunked_transfer::Decoder: the chunk-size line is read byte-wise *)
Theorem c13_chunk_size_agrees_with_model : forall br, wf br ->
  read_chunk_size (st_of br) = (fst (read_chunk_size_op br), st_of (snd (read_chunk_size_op br))) /\
  wf (snd (read_chunk_size_op br)).
Proof.
  intros br W. destruct (read_chunk_size_fn br _ _ (holds_now br W)) as (br' & -> & Hbr').
  pose proof (read_chunk_size_eof (contents br) (br_eof br)) as Hst. unfold on_stream in *. cbn [fst snd] in *.
  change (mkS (contents br) (br_eof br)) with (st_of br) in *. rewrite (holds_st_of _ _ _ Hbr'), <- Hst.
  split; [now destruct (read_chunk_size (st_of br))|apply Hbr'].
Qed.
Print Assumptions c13_chunk_size_agrees_with_model.

(* chunked_transfer::Decoder: the application's loop "read until m bytes or the end"
   dec_fn (Http/ReaderOpChunkLoopFacts.v) is that loop as a function of the logical stream. It is
   DFOk F or DFTorn, never out of fuel (c13_chunked_determinate_or_torn). DFTorn = a chunk whose
   payload is complete in the stream but is not followed by CR LF: then the property is FALSE for
   the real code (c13_chunked_torn_counterexample below, confirmed on the crate: the same bytes give
   the application "" or "he" before the same error). In every other case: *)
Theorem c13_chunked_segmentation_invariant : forall sz1 sz2 m rem br1 br2 F,
  same_stream br1 br2 -> (forall h, 0 < sz1 h) -> (forall h, 0 < sz2 h) -> rem <> Some 0%N ->
  dec_fn (S (List.length (contents br1))) m rem (contents br1) (br_eof br1) = DFOk F ->
  exists acc1 acc2 br1' br2',
    dec_take sz1 m rem br1 = Some (acc1, dt_end F, dt_rem F, br1') /\
    dec_take sz2 m rem br2 = Some (acc2, dt_end F, dt_rem F, br2') /\
    pieces_bytes acc1 = dt_got F /\ pieces_bytes acc2 = dt_got F /\ same_stream br1' br2'.
Proof.
  intros sz1 sz2 m rem br1 br2 F Hs Hs1 Hs2 Hrem H. destruct (same_stream_holds br1 br2 Hs) as (H1 & H2).
  destruct (dec_take_fn_spec sz1 m rem br1 _ _ _ F H1 Hs1 Hrem H) as (a1 & b1 & R1 & P1 & Hb1).
  destruct (dec_take_fn_spec sz2 m rem br2 _ _ _ F H2 Hs2 Hrem H) as (a2 & b2 & R2 & P2 & Hb2).
  exists a1, a2, b1, b2. repeat (split; [assumption|]). exact (holds_same_stream _ _ _ _ Hb1 Hb2).
Qed.
Print Assumptions c13_chunked_segmentation_invariant.

Theorem c13_chunked_determinate_or_torn : forall m rem x e, rem <> Some 0%N ->
  (exists F, dec_fn (S (List.length x)) m rem x e = DFOk F) \/ dec_fn (S (List.length x)) m rem x e = DFTorn.
Proof.
  intros m rem x e Hrem. pose proof (dec_fn_no_fuel (S (List.length x)) m rem x e Hrem ltac:(lia)) as H.
  destruct (dec_fn (S (List.length x)) m rem x e) as [F| |]; [left; eauto|right; reflexivity|congruence].
Qed.
Print Assumptions c13_chunked_determinate_or_torn.

(* and the common value is what the full-read loop of the model, Body.take over BChunked, obtains *)
Theorem c13_chunked_agrees_with_model : forall c sz n m rem br al F,
  wf br -> (forall h, 0 < sz h) -> 0 < n -> rem <> Some 0%N ->
  dec_fn (S (List.length (contents br))) m rem (contents br) (br_eof br) = DFOk F ->
  exists acc1 br' acc2,
    dec_take sz m rem br = Some (acc1, dt_end F, dt_rem F, br') /\
    take c (S (List.length (contents br))) m n (BChunked rem false) (st_of br) al []
      = (acc2, dt_end F, chunked_reader_after c F, st_of br', al) /\
    pieces_bytes acc1 = pieces_bytes acc2 /\ pieces_bytes acc1 = dt_got F /\ wf br'.
Proof. exact dec_take_agrees_with_model. Qed.
Print Assumptions c13_chunked_agrees_with_model.

(* a request with a 5-byte body, followed by the beginning of the next request *)
Definition c13_stream : bytes :=
  s "POST /a HTTP/1.1" ++ CRLF ++ s "Content-Length: 5" ++ CRLF ++ CRLF ++ s "hello" ++ s "GET /b".

Definition c13_one_segment : bufreader := br_init [c13_stream] false.
Definition c13_byte_segments : bufreader := br_init (map (fun b => [b]) c13_stream) false.
(* the first segment ends between the CR and the LF of the request line, the second inside the body *)
Definition c13_split_crlf : bufreader :=
  br_init [s "POST /a HTTP/1.1" ++ [CR];
           [LF] ++ s "Content-Length: 5" ++ CRLF ++ CRLF ++ s "he";
           s "lloGET /b"] false.
(* part of the stream already sits in the BufReader (left there by the previous request) *)
Definition c13_buffered : bufreader :=
  mkBR (s "POST /a HT") (mkSrc [s "TP/1.1" ++ CRLF ++ s "Content-Length: 5" ++ CRLF ++ CRLF ++ s "hel"; s "loGET /b"] false).

Example c13_example_same_stream :
  same_stream c13_one_segment c13_byte_segments /\ same_stream c13_one_segment c13_split_crlf /\
  same_stream c13_one_segment c13_buffered.
Proof.
  assert (Wb : wf c13_buffered) by (repeat constructor; discriminate).
  unfold same_stream. repeat split; try apply wf_br_init; try exact Wb; vm_compute; reflexivity.
Qed.

Definition c13_expected : req_op :=
  RqOk (s "POST") (s "/a") (1, 1)%N [mkH (s "Content-Length") (s "5")] (s "hello").

Example c13_example_request :
  let r1 := read_small_request_op fixed c13_one_segment in
  let r2 := read_small_request_op fixed c13_byte_segments in
  let r3 := read_small_request_op fixed c13_split_crlf in
  let r4 := read_small_request_op fixed c13_buffered in
  fst r1 = c13_expected /\ fst r2 = c13_expected /\ fst r3 = c13_expected /\ fst r4 = c13_expected /\
  contents (snd r1) = s "GET /b" /\ contents (snd r2) = s "GET /b" /\
  contents (snd r3) = s "GET /b" /\ contents (snd r4) = s "GET /b".
Proof. vm_compute. repeat split; reflexivity. Qed.

(* the model on the logical stream says the same *)
Example c13_example_model :
  read_head fixed c13_stream =
    HeadOk (s "POST") (s "/a") (1, 1)%N [mkH (s "Content-Length") (s "5")] (s "helloGET /b") /\
  framing fixed [mkH (s "Content-Length") (s "5")] = FrOk (KBuffered 5) (Some 5%N) false.
Proof. vm_compute. split; reflexivity. Qed.

(* a single read is NOT invariant (it may be short): only loops are. EqualReader with 5 bytes left
   and a 10-byte buffer, positioned at the body *)
Example c13_example_short_read :
  let one := br_init [s "helloGET /b"] false in
  let bytewise := br_init (map (fun b => [b]) (s "helloGET /b")) false in
  fst (fst (limited_read_op 10 5 one)) = OData (s "hello") /\
  fst (fst (limited_read_op 10 5 bytewise)) = OData (s "h") /\
  (* the loops agree, with different buffer-size policies on top *)
  option_map (fun r => (pieces_bytes (fst (fst (fst r))), snd (fst (fst r)), snd (fst r), contents (snd r)))
             (limited_take (fun _ => 10) 100 5 one) = Some (s "hello", EndEof, 0%N, s "GET /b") /\
  option_map (fun r => (pieces_bytes (fst (fst (fst r))), snd (fst (fst r)), snd (fst r), contents (snd r)))
             (limited_take (fun h => S (List.length h)) 100 5 bytewise) = Some (s "hello", EndEof, 0%N, s "GET /b").
Proof. vm_compute. repeat split; reflexivity. Qed.

(* a pause inside the request line: the reader waits with its locals, and goes on when the rest arrives *)
Example c13_example_pause :
  let br := br_init [s "POST /a HT"] false in
  let rest := [s "TP/1.1" ++ [CR]; [LF] ++ s "Host: x"] in
  match read_line_op br with
  | (LBlock acc p, br1) =>
      fst (read_line_op_aux (br_fuel (br_feed rest br1)) acc p (br_feed rest br1)) = LLine (s "POST /a HTTP/1.1") /\
      fst (read_line_op (br_feed rest br)) = LLine (s "POST /a HTTP/1.1")
  | _ => False
  end.
Proof. vm_compute. split; reflexivity. Qed.

Definition c13_show (r : option (list bytes * read_end * option N * bufreader)) :=
  option_map (fun r => (pieces_bytes (fst (fst (fst r))), snd (fst (fst r)), snd (fst r), contents (snd r))) r.

Definition c13_chunked : bytes :=
  s "5" ++ CRLF ++ s "hello" ++ CRLF ++ s "3;x=y" ++ CRLF ++ s "abc" ++ CRLF ++ s "0" ++ CRLF ++ CRLF ++ s "GET".

(* the hypothesis of c13_chunked_segmentation_invariant holds, and the loops give F *)
Example c13_example_chunked :
  dec_fn (S (List.length c13_chunked)) 100 None c13_chunked false
    = DFOk (mkDT (s "helloabc") EndEof None (s "GET")) /\
  c13_show (dec_take (fun _ => 10) 100 None (br_init [c13_chunked] false))
    = Some (s "helloabc", EndEof, None, s "GET") /\
  c13_show (dec_take (fun h => S (List.length h)) 100 None (br_init (map (fun b => [b]) c13_chunked) false))
    = Some (s "helloabc", EndEof, None, s "GET") /\
  c13_show (dec_take (fun _ => 3) 100 None (br_init [s "5" ++ CRLF ++ s "he"; s "llo" ++ [CR]; [LF] ++ s "3;x=y" ++ CRLF ++ s "abc" ++ CRLF ++ s "0" ++ CRLF ++ CRLF ++ s "GET"] false))
    = Some (s "helloabc", EndEof, None, s "GET").
Proof. vm_compute. repeat split; reflexivity. Qed.

(* COUNTER-EXAMPLE for malformed chunked bodies: a 5-byte chunk followed by "XX" instead of CR LF.
   One segment: the read that takes "hello" also finds the missing CR and returns Err; the
   application has obtained nothing. Two segments "5\r\nhe" | "lloXX": the first read returns "he",
   the second consumes "llo", finds the missing CR and returns Err; the application has obtained
   "he". Same bytes, different observation (a handler that echoes what it read answers
   differently). This is the real behaviour of chunked_transfer 1.5.0 under tiny-http (checked
   end-to-end). dec_fn classifies the stream as DFTorn; the model on the logical stream
   (full reads) shows the one-segment behaviour. *)
Definition c13_torn : bytes := s "5" ++ CRLF ++ s "helloXX".
Example c13_chunked_torn_counterexample :
  c13_show (dec_take (fun _ => 10) 100 None (br_init [c13_torn] true))
    = Some ([], EndErr, None, s "X") /\
  c13_show (dec_take (fun _ => 10) 100 None (br_init [s "5" ++ CRLF ++ s "he"; s "lloXX"] true))
    = Some (s "he", EndErr, Some 3%N, s "X") /\
  same_stream (br_init [c13_torn] true) (br_init [s "5" ++ CRLF ++ s "he"; s "lloXX"] true) /\
  dec_fn (S (List.length c13_torn)) 100 None c13_torn true = DFTorn /\
  (let '(a, e, r, st, al) := take fixed 100 100 10 (BChunked None false) (mkS c13_torn true) [] [] in
   (pieces_bytes a, e, sbytes st)) = ([], EndErr, s "X").
Proof.
  split; [vm_compute; reflexivity|]. split; [vm_compute; reflexivity|].
  split; [apply same_stream_br_init; vm_compute; reflexivity|].
  split; vm_compute; reflexivity.
Qed.

(* a pipelined connection: three requests, cut at awkward places *)
Definition c13_pipeline : bytes :=
  s "POST /a HTTP/1.1" ++ CRLF ++ s "Content-Length: 5" ++ CRLF ++ CRLF ++ s "hello" ++
  s "GET /b HTTP/1.1" ++ CRLF ++ s "Host: x" ++ CRLF ++ CRLF ++
  s "GET /c HTTP/1.0" ++ CRLF ++ CRLF.
Definition c13_pipeline_expected : list req_op :=
  [RqOk (s "POST") (s "/a") (1, 1)%N [mkH (s "Content-Length") (s "5")] (s "hello");
   RqOk (s "GET") (s "/b") (1, 1)%N [mkH (s "Host") (s "x")] [];
   RqOk (s "GET") (s "/c") (1, 0)%N [] []].
Example c13_example_pipeline :
  fst (read_requests fixed (br_init [c13_pipeline] false)) = c13_pipeline_expected /\
  fst (read_requests fixed (br_init (map (fun b => [b]) c13_pipeline) false)) = c13_pipeline_expected /\
  fst (read_requests fixed (br_init [firstn 41 c13_pipeline; firstn 7 (skipn 41 c13_pipeline); skipn 48 c13_pipeline] false))
    = c13_pipeline_expected /\
  (* the same stream without its last byte: the third request is not complete, the server waits *)
  fst (read_requests fixed (br_init [removelast c13_pipeline] false))
    = firstn 2 c13_pipeline_expected ++ [RqHead HOpBlock].
Proof. vm_compute. repeat split; reflexivity. Qed.
