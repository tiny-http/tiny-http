(* Conc/MsgQueueFacts.v — consequences of the invariants of Conc/MsgQueue.v (src/util/messages_queue.rs), over ALL
   label sequences and any number of receivers, for properties C07 / C17:
   - a receiver-tagged delivery log, defined OUTSIDE the model by replaying a run and watching `got` grow, is exactly
     the global hand-out order `got`; followed by the values still queued it is the list of pushed values;
   - the subsequence relation, in which Props/C07Glue.v says that one receiver obtains its values in push order;
   - a log of the calls released by an unblock token (watching `tokrets` grow): its length is the growth of `tokrets`,
     its entries are distinct steps of the run, each a step of its receiver, and `unblocks` grows by the Unblock
     labels of the run (the invariant of the calls' identities is in Conc/MsgQueueCalls.v);
   - liveness reading of "no request stays queued while a receiver remains blocked" (repaired queue): when there
     are at least as many receivers ALREADY awake as queued items (which the invariant gives as soon as someone is
     blocked: Props/C07Glue.v), those receivers drain the whole queue by Resume steps alone. *)
From Coq Require Import List Arith Lia.
Import ListNotations.
From TH Require Import Conc.MsgQueue.

Local Arguments q {V}.
Local Arguments now {V}.
Local Arguments rs {V}.
Local Arguments pushed {V}.
Local Arguments got {V}.
Local Arguments unblocks {V}.
Local Arguments tokrets {V}.
Local Arguments Push {V}.
Local Arguments Unblock {V}.
Local Arguments CallPop {V}.
Local Arguments CallTry {V}.
Local Arguments CallTimed {V}.
Local Arguments Resume {V}.
Local Arguments take_ret {V}.
Local Arguments elems {V}.
Local Arguments ntok {V}.
Local Arguments init {V}.

Inductive subseq {A : Type} : list A -> list A -> Prop :=
| sub_nil : subseq [] []
| sub_take x a b : subseq a b -> subseq (x :: a) (x :: b)
| sub_skip x a b : subseq a b -> subseq a (x :: b).

Lemma subseq_refl {A} (l : list A) : subseq l l.
Proof. induction l; constructor; auto. Qed.
Lemma subseq_filter {A} (f : A -> bool) l : subseq (filter f l) l.
Proof. induction l as [|a l IH]; cbn; [constructor|]. destruct (f a); constructor; auto. Qed.
Lemma subseq_map {A B} (g : A -> B) a b : subseq a b -> subseq (map g a) (map g b).
Proof. induction 1; cbn; constructor; auto. Qed.
Lemma subseq_app_r {A} (a b c : list A) : subseq a b -> subseq a (b ++ c).
Proof.
  induction 1; cbn; try (constructor; auto; fail). induction c; constructor; auto.
Qed.
Lemma subseq_filter_mono {A} (f : A -> bool) a b : subseq a b -> subseq (filter f a) (filter f b).
Proof. induction 1; cbn; [constructor| |]; destruct (f x); try constructor; auto. Qed.
Lemma subseq_trans {A} (a b c : list A) : subseq a b -> subseq b c -> subseq a c.
Proof.
  intros Hab Hbc. revert a Hab. induction Hbc as [|x b c Hbc IH|x b c Hbc IH]; intros a Hab.
  - exact Hab.
  - inversion Hab; subst; constructor; auto.
  - constructor; auto.
Qed.
Lemma subseq_In {A} (a b : list A) x : subseq a b -> In x a -> In x b.
Proof. induction 1; cbn; intuition. Qed.
Lemma subseq_length {A} (a b : list A) : subseq a b -> length a <= length b.
Proof. induction 1; cbn; lia. Qed.

Lemma NoDup_map_snd_inj {A B} (l : list (A * B)) a b v :
  NoDup (map snd l) -> In (a, v) l -> In (b, v) l -> a = b.
Proof.
  induction l as [|[x y] l IH]; cbn; intros ND Ha Hb; [contradiction|]. inversion ND as [|? ? Hn ND']; subst.
  destruct Ha as [Ha|Ha], Hb as [Hb|Hb].
  - congruence.
  - injection Ha as -> ->. destruct (Hn (in_map snd _ _ Hb)).
  - injection Hb as -> ->. destruct (Hn (in_map snd _ _ Ha)).
  - auto.
Qed.
Lemma NoDup_app_split {A} (a b : list A) : NoDup (a ++ b) -> NoDup a /\ (forall v, In v a -> ~ In v b).
Proof.
  induction a as [|x a IH]; cbn; intros ND; [split; [constructor|tauto]|]. inversion ND as [|? ? Hn ND']; subst.
  destruct (IH ND') as [N1 Hd]. split.
  - constructor; auto. intros Hin. apply Hn. apply in_app_iff. auto.
  - intros v [->|Hin]; [intros Hb; apply Hn; apply in_app_iff; auto|auto].
Qed.

Section Facts.
Variable V : Type.
Variable MS : nat.
Hypothesis MS_pos : 0 < MS.
Variable EPS : nat.
Notation st := (MsgQueue.st V).
Notation label := (MsgQueue.label V).
Notation step := (MsgQueue.step V MS EPS).
Notation run := (MsgQueue.run V MS EPS).

(* the receiver whose code runs in the step *)
Definition actor (l : label) : option nat :=
  match l with CallPop t | CallTry t | CallTimed t _ | Resume t => Some t | _ => None end.
Definition is_unblock (l : label) : bool := match l with Unblock _ => true | _ => false end.
Definition pushes (l : label) : list V := match l with Push v _ => [v] | _ => [] end.

(* the delivery log: replay the run; whenever a step of receiver t makes `got` grow by v, record (t, v) *)
Definition delivered_by (s s' : st) (l : label) : list (nat * V) :=
  match actor l with
  | Some t => map (fun v => (t, v)) (skipn (length (got s)) (got s'))
  | None => []
  end.

Fixpoint deliveries (fixed : bool) (s : st) (ls : list label) : option (list (nat * V)) :=
  match ls with
  | [] => Some []
  | l :: ls' =>
      match step fixed s l with
      | Some s' => match deliveries fixed s' ls' with
                   | Some d => Some (delivered_by s s' l ++ d)
                   | None => None end
      | None => None
      end
  end.

(* the log of calls released by a token: replay; whenever a step of receiver t makes `tokrets` grow, record
   (position of the step in the run, t) *)
Definition released_by (s s' : st) (i : nat) (l : label) : list (nat * nat) :=
  match actor l with
  | Some t => repeat (i, t) (tokrets s' - tokrets s)
  | None => []
  end.

Fixpoint token_returns (fixed : bool) (s : st) (i : nat) (ls : list label) : option (list (nat * nat)) :=
  match ls with
  | [] => Some []
  | l :: ls' =>
      match step fixed s l with
      | Some s' => match token_returns fixed s' (S i) ls' with
                   | Some d => Some (released_by s s' i l ++ d)
                   | None => None end
      | None => None
      end
  end.

Lemma take_ret_cases (s : st) t s' : take_ret s t = Some s' ->
  exists x, q s = x :: q s' /\ got s' = got s ++ elems [x] /\ tokrets s' = ntok [x] + tokrets s /\
    rs s' = upd (rs s) t Idle /\ pushed s' = pushed s /\ unblocks s' = unblocks s /\ now s' = now s.
Proof.
  unfold take_ret. destruct (q s) as [|x q']; [discriminate|]. intros H. exists x.
  destruct x; injection H as <-; cbn; rewrite ?app_nil_r; repeat split; reflexivity.
Qed.

(* the two kinds of step, as the two observers see them *)
Inductive kind (s s' : st) (l : label) : Prop :=
| KTake t x : actor l = Some t -> got s' = got s ++ elems [x] -> tokrets s' = ntok [x] + tokrets s ->
              rs s' = upd (rs s) t Idle -> kind s s' l
| KQuiet : got s' = got s -> tokrets s' = tokrets s -> kind s s' l.

Lemma acts_actor l t : acts V l t -> actor l = Some t.
Proof. destruct l; cbn; intros []; reflexivity. Qed.

Lemma step_kind fixed s l s' : step fixed s l = Some s' -> kind s s' l.
Proof.
  (* of the seven rules only the third, STake, hands anything out *)
  intros H. destruct (step_rules _ _ _ _ _ _ _ H) as [| |l t r s' Ha _ _ Ht| | | |]; try (apply KQuiet; reflexivity).
  destruct (take_ret_cases _ _ _ Ht) as (x & _ & Hg & Hk & Hrs & _).
  exact (KTake _ _ _ t x (acts_actor _ _ Ha) Hg Hk Hrs).
Qed.

Lemma step_frame fixed s l s' : step fixed s l = Some s' ->
  pushed s' = pushed s ++ pushes l /\ unblocks s' = unblocks s + (if is_unblock l then 1 else 0).
Proof.
  intros H. destruct (step_rules _ _ _ _ _ _ _ H) as [| |l t r s' Ha _ _ Ht| |l t r r' _ Hm| |].
  (* SPush, SUnblock, STake, STryEmpty, SMove, SEmpty, STick; STake and SMove leave the label open: go through the
     labels they allow *)
  3: destruct (take_ret_cases _ _ _ Ht) as (x & _ & _ & _ & _ & -> & -> & _); destruct l; try destruct Ha.
  all: try destruct Hm; cbn; rewrite ?app_nil_r, ?Nat.add_0_r, ?Nat.add_1_r; auto.
Qed.

Lemma delivered_by_step fixed s l s' : step fixed s l = Some s' -> got s' = got s ++ map snd (delivered_by s s' l).
Proof.
  intros H. unfold delivered_by. destruct (step_kind _ _ _ _ H) as [t x Ha Hg _ _|Hg _].
  - rewrite Ha, Hg, skipn_app, skipn_all, Nat.sub_diag. now destruct x.
  - rewrite Hg, skipn_all. destruct (actor l); cbn; now rewrite app_nil_r.
Qed.

Lemma released_by_step fixed s l s' i : step fixed s l = Some s' ->
  (released_by s s' i l = [] /\ tokrets s' = tokrets s) \/
  (exists t, actor l = Some t /\ released_by s s' i l = [(i, t)] /\ tokrets s' = S (tokrets s) /\
             rs s' = upd (rs s) t Idle).
Proof.
  intros H. unfold released_by. destruct (step_kind _ _ _ _ H) as [t x Ha _ Hk Hrs|_ Hk].
  - rewrite Ha, Hk, Nat.add_sub. destruct x; [left|right; exists t]; auto.
  - left. rewrite Hk, Nat.sub_diag. destruct (actor l); auto.
Qed.

Lemma deliveries_got fixed ls : forall s0 s, run fixed s0 ls = Some s ->
  exists log, deliveries fixed s0 ls = Some log /\ got s = got s0 ++ map snd log.
Proof.
  induction ls as [|l ls IH]; cbn; intros s0 s H.
  - inversion H; subst. exists []. cbn. now rewrite app_nil_r.
  - destruct (step fixed s0 l) as [s1|] eqn:E; [|discriminate].
    destruct (IH _ _ H) as (log & Hd & Hg). rewrite Hd. eexists; split; [reflexivity|].
    rewrite Hg, (delivered_by_step _ _ _ _ E), map_app, app_assoc. reflexivity.
Qed.

Lemma deliveries_defined fixed ls : forall s0 log, deliveries fixed s0 ls = Some log -> exists s, run fixed s0 ls = Some s.
Proof.
  induction ls as [|l ls IH]; cbn; intros s0 log H; [eauto|].
  destruct (step fixed s0 l) as [s1|]; [|discriminate].
  destruct (deliveries fixed s1 ls) eqn:E; [|discriminate]. eapply IH; eauto.
Qed.

Theorem log_is_got fixed n ls s log :
  run fixed (init n) ls = Some s -> deliveries fixed (init n) ls = Some log ->
  map snd log = got s /\ map snd log ++ elems (q s) = pushed s.
Proof.
  intros H Hd. destruct (deliveries_got fixed ls _ _ H) as (log' & Hd' & Hg). rewrite Hd in Hd'. inversion Hd'; subst log'.
  cbn in Hg. split; [auto|]. rewrite <- Hg. exact (proj1 (fifo_exactly_once V MS MS_pos EPS fixed n ls s H)).
Qed.

Lemma run_frame fixed ls : forall s0 s, run fixed s0 ls = Some s ->
  pushed s = pushed s0 ++ flat_map pushes ls /\ unblocks s = unblocks s0 + length (filter is_unblock ls).
Proof.
  induction ls as [|l ls IH]; cbn; intros s0 s H.
  - inversion H; subst. now rewrite app_nil_r, Nat.add_0_r.
  - destruct (step fixed s0 l) as [s1|] eqn:E; [|discriminate]. destruct (IH _ _ H) as [-> ->].
    destruct (step_frame _ _ _ _ E) as [-> ->]. rewrite app_assoc. split; [reflexivity|]. destruct (is_unblock l); cbn; lia.
Qed.

Lemma token_returns_actor fixed ls : forall s0 i log, token_returns fixed s0 i ls = Some log ->
  Forall (fun e => exists j l, fst e = i + j /\ nth_error ls j = Some l /\ actor l = Some (snd e)) log.
Proof.
  induction ls as [|l ls IH]; cbn; intros s0 i log Hd.
  - inversion Hd; subst. constructor.
  - destruct (step fixed s0 l) as [s1|] eqn:E; [|discriminate].
    destruct (token_returns fixed s1 (S i) ls) as [d|] eqn:Ed; [|discriminate]. inversion Hd; subst log.
    apply Forall_app. split.
    + destruct (released_by_step _ _ _ _ i E) as [[-> _]|(t0 & Ha & -> & _)]; constructor; [|constructor].
      exists 0, l. cbn. auto.
    + eapply Forall_impl; [|exact (IH _ _ _ Ed)]. cbn. intros e (j & l' & He & Hn). exists (S j), l'. split; [lia|exact Hn].
Qed.

Lemma token_returns_tokrets fixed ls : forall s0 i s, run fixed s0 ls = Some s ->
  exists log, token_returns fixed s0 i ls = Some log /\ tokrets s = tokrets s0 + length log /\ NoDup (map fst log).
Proof.
  induction ls as [|l ls IH]; cbn; intros s0 i s H.
  - inversion H; subst. exists []. cbn. repeat split; auto; constructor.
  - destruct (step fixed s0 l) as [s1|] eqn:E; [|discriminate].
    destruct (IH _ (S i) _ H) as (log & Hd & Hg & Hs). rewrite Hd. eexists; split; [reflexivity|].
    destruct (released_by_step _ _ _ _ i E) as [[-> Hk]|(t & _ & -> & Hk & _)]; cbn.
    + split; [lia|exact Hs].
    + split; [lia|]. constructor; [|exact Hs].
      (* the later entries are later steps *)
      intros Hin. apply in_map_iff in Hin as (e & He & Hin).
      pose proof (token_returns_actor _ _ _ _ _ Hd) as Hr. rewrite Forall_forall in Hr. destruct (Hr e Hin) as (j & _ & Hj & _). lia.
Qed.

Lemma count_pos_nth f (l : list rstate) : 0 < count f l -> exists i r, nth_error l i = Some r /\ f r = true.
Proof.
  unfold count. induction l as [|a l IH]; cbn; [lia|]. destruct (f a) eqn:E.
  - intros _. exists 0, a. auto.
  - intros H. destruct (IH H) as (i & r & Hn & Hf). exists (S i), r. auto.
Qed.

Lemma nth_upd_other {A} (l : list A) i j x : i <> j -> nth_error (upd l i x) j = nth_error l j.
Proof.
  revert i j. induction l as [|a l IH]; intros [|i] [|j] H; cbn; auto; try congruence.
Qed.

(* the whole queue: if there are at least as many awake receivers as queued items, Resume steps of receivers that are
   awake NOW (no Push / Unblock / Tick / Timeout / Spurious, no new call) empty the queue, handing out every queued
   request in order and consuming every queued token *)
Lemma woken_drain : forall k (s : st), length (q s) = k -> length (q s) <= count is_woken (rs s) ->
  exists ts s', run true s (map Resume ts) = Some s' /\
    Forall (fun t => exists r, nth_error (rs s) t = Some r /\ is_woken r = true) ts /\ length ts = length (q s) /\
    q s' = [] /\ got s' = got s ++ elems (q s) /\ tokrets s' = tokrets s + ntok (q s) /\
    pushed s' = pushed s /\ unblocks s' = unblocks s /\ now s' = now s.
Proof.
  induction k as [|k IH]; intros s Hk Hle.
  - destruct (q s) eqn:Eq; [|discriminate]. exists [], s. cbn. rewrite Eq. cbn. rewrite app_nil_r. repeat split; auto.
  - assert (Hw : 0 < count is_woken (rs s)) by lia.
    destruct (count_pos_nth _ _ Hw) as (t & r & Hn & Hr).
    destruct (resume_woken V MS EPS s t r Hn Hr) as (s1 & Hs & Ht); [intros E; rewrite E in Hk; discriminate|].
    destruct (take_ret_cases _ _ _ Ht) as (x & Hq & Hg & Htk & Hrs & Hp & Hu & Hnow).
    pose proof (count_upd MS MS_pos is_woken (rs s) t r Idle Hn) as Cw. rewrite Hr in Cw. cbn in Cw. rewrite <- Hrs in Cw.
    rewrite Hq in *. cbn [length] in *.
    destruct (IH s1) as (ts & s' & Hrun & Hall & Hlen & Hq' & Hg' & Ht' & Hp' & Hu' & Hn'); [lia|lia|].
    exists (t :: ts), s'. cbn [map MsgQueue.run]. rewrite Hs. split; [exact Hrun|]. split.
    { constructor; [exists r; auto|]. eapply Forall_impl; [|exact Hall]. intros t' (r' & Hn1 & Hr'). rewrite Hrs in Hn1.
      destruct (Nat.eq_dec t t') as [->|Hne].
      - rewrite (nth_upd_same _ _ _ _ Hn) in Hn1. inversion Hn1; subst. discriminate.
      - rewrite nth_upd_other in Hn1 by exact Hne. exists r'; auto. }
    split; [cbn; lia|]. split; [exact Hq'|].
    change (x :: q s1) with ([x] ++ q s1). rewrite elems_app, ntok_app, Hg', Ht', Hg, Htk, <- app_assoc.
    repeat split; try congruence. lia.
Qed.

End Facts.
