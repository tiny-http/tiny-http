(* Http/ReaderOpLimitedFacts.v — EqualReader over the operational BufReader (C13): one read may be
   SHORT (it returns a non-empty prefix of what the full-read model returns), but every read LOOP
   "until m bytes or the end", whatever buffer sizes the application offers, obtains the same bytes,
   ends the same way and leaves the same logical stream as the function limited_take_fn of the
   stream; the same for the discard loop of EqualReader::drop; and Body.take over BLimited (full
   reads) computes that same function. *)
From TH Require Import Base.Bytes Base.BytesFacts Http.Request Http.Body Http.BodyFacts
                       Http.ReaderOp Http.ReaderOpFacts.
From Coq Require Import Lia.
Open Scope char_scope.

Lemma limited_read_cases n rem br x e : holds br x e -> 0 < n -> rem <> 0%N ->
  exists br',
    (x = [] /\ limited_read_op n rem br = (if e then OEof else OBlock, rem, br') /\ holds br' [] e) \/
    (exists d x', x = d ++ x' /\ d <> [] /\ (len d <= N.min (N.of_nat n) rem)%N /\
                  limited_read_op n rem br = (OData d, (rem - len d)%N, br') /\ holds br' x' e).
Proof.
  intros Hbr Hn Hrem. unfold limited_read_op. destruct (N.eqb_spec rem 0) as [|_]; [contradiction|].
  destruct (br_read_cases (N.to_nat (N.min (N.of_nat n) rem)) br x e Hbr ltac:(lia))
    as (br' & [(-> & -> & Hbr')|(d & x' & -> & Hd & Hl & -> & Hbr')]); exists br'.
  - left. destruct e; auto.
  - right. exists d, x'. split; [reflexivity|]. split; [exact Hd|]. split; [unfold len; lia|]. auto.
Qed.

Corollary limited_read_prefix_of_full n rem br d rem' br' : wf br -> 0 < n ->
  limited_read_op n rem br = (OData d, rem', br') ->
  exists d2, firstn (N.to_nat (N.min (N.of_nat n) rem)) (contents br) = d ++ d2.
Proof.
  intros Hwf Hn H. destruct (N.eqb_spec rem 0) as [->|Hrem]; [discriminate|].
  destruct (limited_read_cases n rem br _ _ (holds_now br Hwf) Hn Hrem)
    as (br1 & [(_ & E & _)|(d1 & x' & Hx & _ & Hl & E & _)]); rewrite H in E.
  - destruct (br_eof br); discriminate.
  - injection E as -> _ _. rewrite Hx. unfold len in Hl.
    exists (firstn (N.to_nat (N.min (N.of_nat n) rem) - List.length d1) x').
    rewrite firstn_app, firstn_all2 by lia. reflexivity.
Qed.

(* what a read loop obtains: the bytes, how it ended, the count left in the reader, the stream left *)
Record ltres := mkLT { lt_got : bytes; lt_end : read_end; lt_rem : N; lt_rest : bytes }.

Definition limited_take_fn (m rem : N) (x : bytes) (e : bool) : ltres :=
  let t := N.min m rem in
  if (t <=? len x)%N
  then mkLT (firstn (N.to_nat t) x) (if (m <=? rem)%N then EndCount else EndEof) (rem - t)%N
            (skipn (N.to_nat t) x)
  else mkLT x (if e then EndEof else EndBlock) (rem - len x)%N [].

Definition lt_prepend (d : bytes) (F : ltres) : ltres :=
  mkLT (d ++ lt_got F) (lt_end F) (lt_rem F) (lt_rest F).

Lemma limited_take_fn_0 rem x e : limited_take_fn 0 rem x e = mkLT [] EndCount rem x.
Proof.
  unfold limited_take_fn. rewrite N.min_0_l, N.sub_0_r.
  destruct (N.leb_spec 0 (len x)); [|lia]. destruct (N.leb_spec 0 rem); [|lia]. reflexivity.
Qed.

Lemma limited_take_fn_rem0 m x e : m <> 0%N -> limited_take_fn m 0 x e = mkLT [] EndEof 0 x.
Proof.
  intros Hm. unfold limited_take_fn. rewrite N.min_0_r.
  destruct (N.leb_spec 0 (len x)); [|lia]. destruct (N.leb_spec m 0); [lia|]. reflexivity.
Qed.

Lemma limited_take_fn_nil m rem e : m <> 0%N -> rem <> 0%N ->
  limited_take_fn m rem [] e = mkLT [] (if e then EndEof else EndBlock) rem [].
Proof.
  intros Hm Hr. unfold limited_take_fn. change (len []) with 0%N. rewrite N.sub_0_r.
  destruct (N.leb_spec (N.min m rem) 0); [lia|reflexivity].
Qed.

(* a piece d read off the front counts against both limits and is otherwise passed through *)
Lemma limited_take_fn_app m rem (d x : bytes) e :
  limited_take_fn (len d + m) (len d + rem) (d ++ x) e = lt_prepend d (limited_take_fn m rem x e).
Proof.
  unfold limited_take_fn. cbn zeta.
  rewrite N.add_min_distr_l, len_app, !N_leb_add_l, !N_sub_add_l, firstn_len_app, skipn_len_app.
  destruct (N.min m rem <=? len x)%N; reflexivity.
Qed.

Lemma limited_take_fn_step m rem (d x : bytes) e : (len d <= N.min m rem)%N ->
  limited_take_fn m rem (d ++ x) e = lt_prepend d (limited_take_fn (m - len d) (rem - len d) x e).
Proof. intros Hd. rewrite <- limited_take_fn_app. f_equal; lia. Qed.

(* for EVERY policy sz of buffer sizes (all positive): the concatenation of the pieces, the way the
   loop ends, the count left and the stream left are those of limited_take_fn; only the way the
   bytes are cut into pieces (acc') may depend on the segmentation *)
Theorem limited_take_op_fn : forall fuel sz m rem br acc x e,
  holds br x e -> (forall h, 0 < sz h) -> List.length x < fuel ->
  let F := limited_take_fn m rem x e in
  exists acc' br', limited_take_op fuel sz m rem br acc = Some (acc', lt_end F, lt_rem F, br') /\
                   pieces_bytes acc' = pieces_bytes acc ++ lt_got F /\
                   holds br' (lt_rest F) e.
Proof.
  induction fuel as [|f IH]; intros sz m rem br acc x e Hbr Hsz Hf; [lia|].
  cbn [limited_take_op]. destruct (N.eqb_spec m 0) as [->|Hm].
  - rewrite limited_take_fn_0. exists acc, br. cbn [lt_got lt_end lt_rem lt_rest]. rewrite app_nil_r. auto.
  - destruct (N.eqb_spec rem 0) as [->|Hrem].
    { rewrite limited_take_fn_rem0 by assumption. exists acc, br. cbn. rewrite app_nil_r. auto. }
    assert (Hw : 0 < N.to_nat (N.min m (N.of_nat (sz acc)))) by (specialize (Hsz acc); lia).
    destruct (limited_read_cases _ rem br x e Hbr Hw Hrem)
      as (br' & [(-> & -> & Hbr')|(d & x' & -> & Hd & Hl & -> & Hbr')]).
    + rewrite limited_take_fn_nil by assumption. exists acc, br'.
      cbn [lt_got lt_end lt_rem lt_rest]. rewrite app_nil_r. destruct e; auto.
    + apply length_pos in Hd. rewrite limited_take_fn_step by lia.
      destruct (IH sz (m - len d)%N (rem - len d)%N br' (d :: acc) x' e Hbr' Hsz) as (acc' & br'' & Ht & Hp & Hbr'').
      { rewrite app_length in Hf. lia. }
      exists acc', br''. cbn [lt_prepend lt_got lt_end lt_rem lt_rest]. split; [exact Ht|].
      rewrite Hp, pieces_bytes_cons, app_assoc. auto.
Qed.

Corollary limited_take_fn_spec sz m rem br x e : holds br x e -> (forall h, 0 < sz h) ->
  let F := limited_take_fn m rem x e in
  exists acc' br', limited_take sz m rem br = Some (acc', lt_end F, lt_rem F, br') /\
                   pieces_bytes acc' = lt_got F /\ holds br' (lt_rest F) e.
Proof.
  intros Hbr Hsz. exact (limited_take_op_fn (br_fuel br) sz m rem br [] x e Hbr Hsz (br_fuel_gt br x e Hbr)).
Qed.

Theorem limited_discard_op_fn c : forall fuel rem br x e, holds br x e -> List.length x < fuel ->
  exists br', limited_discard_op c fuel rem br = Some br' /\ holds br' (skipn (N.to_nat rem) x) e.
Proof.
  induction fuel as [|f IH]; intros rem br x e Hbr Hf; [lia|].
  cbn [limited_discard_op]. destruct (N.eqb_spec rem 0) as [->|Hrem].
  - exists br. auto.
  - set (k := N.to_nat (if fix_d6 c then N.min rem 8192 else rem)).
    assert (Hk : 0 < k <= N.to_nat rem) by (unfold k; destruct (fix_d6 c); lia).
    destruct (br_read_cases k br x e Hbr ltac:(lia)) as (br' & [(-> & -> & Hbr')|(d & x' & -> & Hd & Hl & -> & Hbr')]).
    + exists br'. rewrite skipn_nil. destruct e; auto.
    + apply length_pos in Hd.
      replace (N.to_nat rem) with (N.to_nat (len d + (rem - len d))) by (unfold len; lia).
      rewrite skipn_len_app. apply IH; [exact Hbr'|]. rewrite app_length in Hf. lia.
Qed.

Lemma src_read_cases n x e : 0 < n ->
  (x = [] /\ src_read n (mkS x e) = (if e then REof else RBlock, mkS [] e)) \/
  (exists d x', x = d ++ x' /\ d <> [] /\ List.length d <= n /\ src_read n (mkS x e) = (RData d, mkS x' e)).
Proof.
  intros Hn. destruct x as [|b x]; [left; split; [reflexivity|exact (src_read_nil n (mkS [] e) Hn eq_refl)]|].
  right. exists (firstn n (b :: x)), (skipn n (b :: x)). split; [symmetry; apply firstn_skipn|].
  split; [apply firstn_nonempty; [exact Hn|discriminate]|]. split; [rewrite firstn_length; lia|].
  apply (src_read_data n (mkS _ e) Hn). discriminate.
Qed.

Lemma discard_at_eof c rem e al : rem <> 0%N ->
  exists al', discard c 1 rem (mkS [] e) al = (mkS [] e, al').
Proof.
  intros Hr. cbn [discard]. destruct (N.eqb_spec rem 0) as [|_]; [contradiction|].
  change (len (sbytes (mkS [] e))) with 0%N. rewrite N.min_0_r.
  change (N.to_nat (if (0 =? 0)%N then 1%N else 0%N)) with 1.
  rewrite (src_read_nil 1 (mkS [] e)) by (reflexivity || lia). destruct e; eexists; reflexivity.
Qed.

Theorem take_limited_fn c n : 0 < n -> forall fuel m rem x e al acc, List.length x < fuel ->
  let F := limited_take_fn m rem x e in
  exists acc' r' al', take c fuel m n (BLimited rem) (mkS x e) al acc
                        = (acc', lt_end F, r', mkS (lt_rest F) e, al') /\
                      pieces_bytes acc' = pieces_bytes acc ++ lt_got F /\
                      (r' = BLimited (lt_rem F) \/ r' = BEmpty).
Proof.
  intros Hn. induction fuel as [|f IH]; intros m rem x e al acc Hf; [lia|].
  cbn zeta. cbn [take]. destruct (N.eqb_spec m 0) as [->|Hm].
  - rewrite limited_take_fn_0. exists acc, (BLimited rem), al. cbn [lt_got lt_end lt_rem lt_rest].
    rewrite app_nil_r. auto.
  - rewrite body_read_any_pos by lia. unfold body_read. destruct (N.eqb_spec rem 0) as [->|Hrem].
    { rewrite limited_take_fn_rem0 by assumption. exists acc, BEmpty, al. cbn. rewrite app_nil_r. auto. }
    set (k := N.to_nat (N.min (N.of_nat (N.to_nat (N.min m (N.of_nat n)))) rem)).
    assert (Hk : 0 < k /\ (N.of_nat k <= N.min m rem)%N) by (unfold k; lia).
    clearbody k. destruct (src_read_cases k x e) as [(-> & ->)|(d & x' & -> & Hd & Hl & ->)]; [apply Hk| |].
    + rewrite limited_take_fn_nil by assumption. cbn [lt_got lt_end lt_rem lt_rest]. destruct e.
      * destruct (discard_at_eof c rem true al Hrem) as (al' & ->).
        exists acc, BEmpty, al'. rewrite app_nil_r. auto.
      * exists acc, (BLimited rem), al. rewrite app_nil_r. auto.
    + apply length_pos in Hd. rewrite app_length in Hf. rewrite limited_take_fn_step by (unfold len; lia).
      destruct (IH (m - len d)%N (rem - len d)%N x' e al (d :: acc)) as (acc' & r' & al' & Ht & Hp & Hr); [lia|].
      exists acc', r', al'. cbn [lt_prepend lt_got lt_end lt_rem lt_rest].
      split; [exact Ht|]. split; [|exact Hr]. rewrite Hp, pieces_bytes_cons, app_assoc. reflexivity.
Qed.

(* C13 for the limited reader in one statement: the operational loop (any segmentation, any
   buffer-size policy) and the full-read loop of the model (any fixed buffer size) obtain the
   same bytes, end the same way, and leave the same logical stream and the same count *)
Corollary limited_take_agrees_with_model c sz n m rem br al : wf br -> (forall h, 0 < sz h) -> 0 < n ->
  exists acc1 en rem1 br' acc2 r' al',
    limited_take sz m rem br = Some (acc1, en, rem1, br') /\
    take c (S (List.length (contents br))) m n (BLimited rem) (st_of br) al []
      = (acc2, en, r', st_of br', al') /\
    pieces_bytes acc1 = pieces_bytes acc2 /\
    (r' = BLimited rem1 \/ r' = BEmpty) /\ wf br'.
Proof.
  intros Hwf Hsz Hn.
  destruct (limited_take_fn_spec sz m rem br _ _ (holds_now br Hwf) Hsz) as (acc1 & br' & H1 & P1 & (W & C & E)).
  destruct (take_limited_fn c n Hn (S (List.length (contents br))) m rem (contents br) (br_eof br) al []
              ltac:(lia)) as (acc2 & r' & al' & H2 & P2 & Hr).
  cbn zeta in *. eexists acc1, _, _, br', acc2, r', al'. split; [exact H1|].
  unfold st_of. rewrite C, E. repeat split; auto. rewrite P1, P2. reflexivity.
Qed.
