(* Props/C18.v — C18: Expect: 100-continue. The lemmas are in Http/C18Facts.v, FramingBodyFacts.v, C12ServeFacts.v. *)
From TH Require Import Base.Bytes Base.BytesFacts Http.Response Http.Request Http.Body Http.Serve
  Http.ServeFacts Http.FramingBodyFacts Http.C12Facts Http.C12ServeFacts Http.C18Facts.

(* the expectation is recognised iff the first Expect header is, ignoring case, "100-continue";
   any other value is refused with 417 (a malformed Content-Length is refused first, with 400) *)
Theorem c18_expect_recognised : forall c hs, framing c hs <> FrBadContentLength ->
  (forall k bl e, framing c hs = FrOk k bl e ->
     (e = true <-> exists v, first_value (s "Expect") hs v /\ lower v = lower (s "100-continue"))) /\
  (framing c hs = FrExpectationFailed <->
     exists v, first_value (s "Expect") hs v /\ lower v <> lower (s "100-continue")).
Proof. exact expect_recognised. Qed.
Print Assumptions c18_expect_recognised.

(* with the expectation the body is never read before the application asks *)
Theorem c18_not_prebuffered : forall c hs k bl,
  framing c hs = FrOk k bl true -> forall n, k <> KBuffered n.
Proof.
  intros c hs k bl H n. apply framing_kind in H as (u & te & ->). unfold kind_of.
  destruct u; [discriminate|]. destruct bl as [n0|]; [|destruct te; discriminate].
  destruct (n0 =? 0)%N; [discriminate|]. rewrite andb_false_r. discriminate.
Qed.
Print Assumptions c18_not_prebuffered.

(* the request is built at once, on the untouched rest of the stream; with a Content-Length n > 0
   its reader is the exact-length reader over n bytes (reader exactness: body-side theorems) *)
Theorem c18_reader : forall c hs k bl rest eof al, framing c hs = FrOk k bl true ->
  exists rd, built_of k rest eof al = inl (Some (rd, mkS rest eof, al)) /\
    (k = KUpgrade /\ rd = BUpgrade \/
     (exists n, bl = Some n /\ n <> 0%N /\ k = KLimited n /\ rd = BLimited n) \/
     (bl = Some 0%N /\ k = KEmpty /\ rd = BEmpty) \/
     (bl = None /\ (k = KChunked /\ rd = BChunked None false \/ k = KEmpty /\ rd = BEmpty))).
Proof.
  intros c hs k bl rest eof al H. apply framing_kind in H as (u & te & ->). unfold kind_of.
  destruct u; [exists BUpgrade; split; [reflexivity|auto]|].
  destruct bl as [n0|].
  - destruct (N.eqb_spec n0 0) as [->|Hn].
    + exists BEmpty. split; [reflexivity|]. right; right; left. auto.
    + rewrite andb_false_r. exists (BLimited n0). split; [reflexivity|]. right; left. exists n0. auto.
  - destruct te; [exists (BChunked None false)|exists BEmpty]; (split; [reflexivity|]); right; right; right; auto.
Qed.
Print Assumptions c18_reader.

Theorem c18_expect_limited : forall hs v n e,
  header_value "Transfer-Encoding" hs = None ->
  header_value "Content-Length" hs = Some v -> v <> [] -> forallb is_digit v = true ->
  parse_dec v = Some n -> n <> 0%N ->
  match header_value "Connection" hs with
  | Some cv => contains_sub (s "upgrade") (lower cv) | None => false end = false ->
  header_value "Expect" hs = Some e -> eq_ci e (s "100-continue") = true ->
  framing fixed hs = FrOk (KLimited n) (Some n) true.
Proof.
  intros hs v n e Hte Hcl Hv Hd Hp Hn Hc He Hci. unfold framing. rewrite Hte, Hcl, He, Hci, Hc.
  cbn [fix_d9 fixed]. destruct v as [|v0 v1]; [contradiction|]. rewrite Hd, Hp.
  destruct (N.eqb_spec n 0); [contradiction|]. now rewrite andb_false_r.
Qed.
Print Assumptions c18_expect_limited.

(* the interim response: a 100 status line and head, no body, always renderable *)
Theorem c18_interim_shape : forall date ver hs,
  render date (empty_response 100) ver hs true None =
  (render_head ver 100 [mkH (s "Server") (s "tiny-http (Rust)"); mkH (s "Date") date;
                        mkH (s "Content-Length") (s "0")], true).
Proof. exact interim_render. Qed.
Print Assumptions c18_interim_shape.

(* one iteration of serve_loop that delivers a request (version <= 1.1): the bytes it appends to
   the wire are  [interim, iff the request expects AND the action asks for the body]  followed by
   [the final answer, unless the handler's reads blocked]. Hence: at most one interim response,
   always before the final one; none if the application does not ask; none without expectation. *)
Theorem c18_one_step_wire :
  forall c date script dflt st wire reqs al ok m url ver hs rest kind bl ex rd st1 al1,
  read_head c (sbytes st) = HeadOk m url ver hs rest ->
  framing c hs = FrOk kind bl ex ->
  built_of kind rest (seof st) al = inl (Some (rd, st1, al1)) ->
  ver_gt_11 ver = false ->
  forall f, exists (blocked : bool) (d : delivered) st' al' ok',
  let act := act_of script dflt in
  let W := wire ++ (if ex && asks_body act then interim date ver hs else [])
                ++ (if blocked then [] else final_bytes date act m ver hs) in
  serve_loop c date (S f) script dflt st wire reqs al ok =
    (if blocked then mkO (frev reqs ++ [d]) W CHang al' ok'
     else if last_request ver hs then mkO (frev reqs ++ [d]) W CClosed al' ok'
     else serve_loop c date f (script_tl script) dflt st' W (d :: reqs) al' ok') /\
  d_method d = m /\ d_url d = url /\ d_headers d = hs /\
  (a_reads act = [] -> (forall p, a_finish act <> FUpgrade p) -> blocked = false).
Proof.
  intros c date script dflt st wire reqs al ok m url ver hs rest kind bl ex rd st1 al1 Hh Hf Hb Hv f.
  set (h := handle c date (act_of script dflt) m ver hs ex rd st1 al1).
  set (blk := match h_end h with EndBlock => true | _ => false end).
  exists blk, (mkD m url ver hs bl (pieces_bytes (h_got h)) (h_end h)), (h_st4 h),
         (if blk then h_al3 h else h_al4 h), (ok && h_m100 h && h_mfin h).
  cbv zeta. split; [|repeat split].
  - rewrite (loop_served _ _ _ _ _ _ _ _ _ _ _ _ _ _ _ _ _ _ _ _ Hh Hf Hb Hv), handle_interim, handle_final,
      frev_cons. fold h blk. destruct blk; [rewrite app_nil_r|destruct (last_request ver hs)]; reflexivity.
  - intros Hr Hfin. unfold blk, h. now rewrite handle_no_reads_end.
Qed.
Print Assumptions c18_one_step_wire.

(* the three cases at the level of the step function (serve_loop_S, step_delivered relate it to
   serve_loop): step_wire = the wire after the iteration *)
Theorem c18_interim_once_before_final :
  forall c date script dflt wire reqs ok m url ver hs bl ex rd st1 al1,
  ver_gt_11 ver = false -> ex = true -> a_reads (act_of script dflt) <> [] ->
  step_wire (deliver_step c date script dflt wire reqs ok m url ver hs bl ex rd st1 al1) =
  wire ++ interim date ver hs
       ++ (match h_end (handle c date (act_of script dflt) m ver hs ex rd st1 al1) with
           | EndBlock => [] | _ => final_bytes date (act_of script dflt) m ver hs end).
Proof.
  intros c date script dflt wire reqs ok m url ver hs bl ex rd st1 al1 Hv -> Hr.
  rewrite deliver_wire by exact Hv. unfold asks_body. now destruct (a_reads (act_of script dflt)).
Qed.
Print Assumptions c18_interim_once_before_final.

Theorem c18_no_interim_if_not_asked :
  forall c date script dflt wire reqs ok m url ver hs bl ex rd st1 al1,
  ver_gt_11 ver = false -> a_reads (act_of script dflt) = [] ->
  step_wire (deliver_step c date script dflt wire reqs ok m url ver hs bl ex rd st1 al1) =
  wire ++ (match h_end (handle c date (act_of script dflt) m ver hs ex rd st1 al1) with
           | EndBlock => [] | _ => final_bytes date (act_of script dflt) m ver hs end).
Proof.
  intros c date script dflt wire reqs ok m url ver hs bl ex rd st1 al1 Hv Hr.
  rewrite deliver_wire by exact Hv. unfold asks_body. now rewrite Hr, Bool.andb_false_r.
Qed.
Print Assumptions c18_no_interim_if_not_asked.

Theorem c18_no_interim_without_expectation :
  forall c date script dflt wire reqs ok m url ver hs bl ex rd st1 al1,
  ver_gt_11 ver = false -> ex = false ->
  step_wire (deliver_step c date script dflt wire reqs ok m url ver hs bl ex rd st1 al1) =
  wire ++ (match h_end (handle c date (act_of script dflt) m ver hs ex rd st1 al1) with
           | EndBlock => [] | _ => final_bytes date (act_of script dflt) m ver hs end).
Proof.
  intros c date script dflt wire reqs ok m url ver hs bl ex rd st1 al1 Hv ->. now rewrite deliver_wire by exact Hv.
Qed.
Print Assumptions c18_no_interim_without_expectation.

(* non-vacuity *)
Definition c18_req : bytes :=
  s "POST /u HTTP/1.1" ++ CRLF ++ s "Host: h" ++ CRLF ++ s "Expect: 100-Continue" ++ CRLF ++
  s "Content-Length: 5" ++ CRLF ++ CRLF.
Definition c18_hs : list header :=
  [mkH (s "Host") (s "h"); mkH (s "Expect") (s "100-Continue"); mkH (s "Content-Length") (s "5")].
Example c18_example_hyps :
  read_head fixed (c18_req ++ s "hello") = HeadOk (s "POST") (s "/u") (1, 1)%N c18_hs (s "hello") /\
  framing fixed c18_hs = FrOk (KLimited 5) (Some 5%N) true /\
  framing fixed [mkH (s "Expect") (s "200-ok")] = FrExpectationFailed.
Proof. vm_compute. repeat split; reflexivity. Qed.
(* the application reads the body: interim, then the body is readable in full, then the answer *)
Example c18_example_asks :
  let a := mkA [(100%N, 16%nat)] (FRespond 200 (s "ok") true) in
  let o := serve fixed (s "D") [] a (c18_req ++ s "hello") true in
  o_wire o = interim (s "D") (1, 1)%N c18_hs ++ final_bytes (s "D") a (s "POST") (1, 1)%N c18_hs /\
  map d_read (o_reqs o) = [s "hello"] /\
  starts_with (s "HTTP/1.1 100 Continue") (o_wire o) = true.
Proof. vm_compute. repeat split; reflexivity. Qed.
(* the application answers without reading: no interim response *)
Example c18_example_not_asked :
  let a := mkA [] (FRespond 403 (s "no") true) in
  let o := serve fixed (s "D") [] a c18_req true in
  o_wire o = final_bytes (s "D") a (s "POST") (1, 1)%N c18_hs /\
  starts_with (s "HTTP/1.1 403") (o_wire o) = true.
Proof. vm_compute. repeat split; reflexivity. Qed.
(* the client waits for the interim response before sending the body: it gets it (the read then
   blocks until the body arrives) *)
Example c18_example_client_waits :
  let a := mkA [(100%N, 16%nat)] (FRespond 200 (s "ok") true) in
  let o := serve fixed (s "D") [] a c18_req false in
  o_wire o = interim (s "D") (1, 1)%N c18_hs /\ o_end o = CHang.
Proof. vm_compute. repeat split; reflexivity. Qed.
