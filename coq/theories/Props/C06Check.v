(* Props/C06Check.v — the computable checker the driver applies to the scripts of the scheduled writer-chain runs
   (`sws` cases marked live=1) is sound: whatever `system_ok_b` accepts is a well-ordered system, so by
   Props/C01Lockstep.v such a script can never get stuck, whatever the schedule, and every maximal run drops every
   writer. The check demands exactly that of the real chain (nothing left blocked at the end of the run). *)
From Coq Require Import List Arith Bool Lia.
Import ListNotations.
From TH Require Import Conc.SeqWriter Conc.SeqWriterFacts Conc.SeqWriterPrograms
  Conc.SeqWriterProgress Conc.SeqWriterCheck Props.C01Lockstep.

Theorem c06_checker_sound :
  forall (byte : Type) (n : nat) (progs : list (prog byte)),
    system_ok_b byte n progs = true -> system_ok byte n progs.
Proof. exact system_ok_b_sound. Qed.
Print Assumptions c06_checker_sound.

Theorem c06_checked_scripts_never_stuck :
  forall (byte : Type) (n : nat) (progs : list (prog byte)) (sched : list nat) (c : config byte),
    system_ok_b byte n progs = true ->
    exec byte {| cst := init byte; cps := repeat (New byte) n :: progs |} sched = Some c ->
    finished byte c \/ exists t c', exec_at byte c t = Some c'.
Proof.
  intros byte n progs sched c H. apply c06_well_ordered_never_stuck_with_creation. now apply system_ok_b_sound.
Qed.
Print Assumptions c06_checked_scripts_never_stuck.

(* non-vacuity: the checker accepts the three-thread system of C01Lockstep's example and rejects the one that gets stuck
   and the one with an unowned writer *)
Example c06_checker_examples :
  sw_system_ok_b 5 [[Write nat 0 [1]; Flush nat 0; DropW nat 0; Write nat 3 [4]; DropW nat 3];
                    [Write nat 1 [2]; DropW nat 1; DropW nat 4];
                    [Write nat 2 [3]; Write nat 2 [33]; Flush nat 2; DropW nat 2]] = true /\
  sw_system_ok_b 3 [[Write nat 0 [1]; Write nat 2 [3]; DropW nat 0; DropW nat 2]; [Write nat 1 [2]; DropW nat 1]] = false /\
  sw_system_ok_b 2 [[Write nat 1 [7]; DropW nat 1]] = false /\
  sw_system_ok_b 2 [[Write nat 0 [7]; DropW nat 0]; [DropW nat 1]; [Flush nat 0]] = false.
Proof. vm_compute. repeat split. Qed.
