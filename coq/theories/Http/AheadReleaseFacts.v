(* Http/AheadReleaseFacts.v — read-ahead on one connection (C11), part 2: what releases the
   successors of a request whose body is streamed. With the whole body on the connection, the
   request going away (respond / drop / into_writer) or its body being read to end-of-stream makes
   exactly the requests behind the body obtainable; reading only a part of the body does not.
   Proved once for any reader that has its whole body on the connection (`whole_body` of
   C03Facts.v); the length-limited and the chunked reader are such readers. *)
From TH Require Import Base.Bytes Http.Request Http.Body Http.Serve Http.Ahead Http.HeadFacts Http.AheadFacts Http.C03Facts.
From Coq Require Import Lia Arith.

(* the request that holds the reader does not end the connection / ends it: ClientConnection::next
   sets no_more_requests for Connection: close / upgrade and for HTTP/1.0 without keep-alive, and
   then nothing behind that request is ever parsed (the flag of AHolds) *)
Definition keeps_alive (r : req_head) : Prop := last_request (rq_version r) (hdrs r) = false.
Definition final (r : req_head) : Prop := last_request (rq_version r) (hdrs r) = true.

Lemma ahead_two_final c a st got r st1 last :
  ahead c st = (got, AHolds r st1 last) -> last = true -> ahead_two c a st = (got, []).
Proof. intros E ->. unfold ahead_two. now rewrite E. Qed.
Arguments ahead_two_final {c} a {st got r st1 last}.

Lemma ahead_two_goes_away c st got r st1 :
  ahead c st = (got, AHolds r st1 false) ->
  ahead_two c RlGoesAway st = (got, fst (ahead c (fst (body_drop c r st1 [])))).
Proof. intros E. unfold ahead_two. now rewrite E. Qed.

Lemma ahead_two_read_all c st got r st1 acc' r' st2 al' :
  ahead c st = (got, AHolds r st1 false) ->
  take c (S (List.length (sbytes st1))) ALL 4096 r st1 [] [] = (acc', EndEof, r', st2, al') -> r' <> BUpgrade ->
  ahead_two c RlReadAll st = (got, fst (ahead c st2)).
Proof.
  intros E T Hr. unfold ahead_two.
  (* the buffer size plays no part: generalised, so that the goal does not carry 4096 in unary *)
  revert T. generalize 4096%nat. intros n T.
  rewrite E. cbv iota. rewrite T. destruct r'; [reflexivity..|contradiction].
Qed.

Lemma ahead_two_read_count c st got r st1 last k acc' r' st2 al' :
  ahead c st = (got, AHolds r st1 last) ->
  take c (S (List.length (sbytes st1))) k 7 r st1 [] [] = (acc', EndCount, r', st2, al') ->
  ahead_two c (RlReadPart k) st = (got, []).
Proof. intros E T. unfold ahead_two. rewrite E. destruct last; [reflexivity|now rewrite T]. Qed.

(* the three actions of the application on a reader with its whole body on the connection, with
   the fuel and the buffer sizes ahead_two hands to `take` *)
Section Whole.
Variables (r : breader) (x : bytes) (e : bool) (body tail : bytes).
Hypothesis W : whole_body r x e body tail.

Lemma drop_whole : fst (body_drop fixed r (mkS x e) []) = mkS tail e.
Proof. exact (proj2 (whole_reads W [] [] (Forall_nil _) eq_refl)). Qed.

Lemma fuel_whole : (List.length body < S (List.length x))%nat.
Proof. destruct W as (Inv & _ & _ & _ & fits & _). lia. Qed.

Lemma read_part m : (m <= len body)%N ->
  exists acc' r' st',
    take fixed (S (List.length x)) m 7 r (mkS x e) [] [] = (acc', EndCount, r', st', []) /\
    len (pieces_bytes acc') = m.
Proof.
  intros Hm. destruct (whole_take W _ m 7 [] [] (Nat.lt_0_succ _) fuel_whole)
    as (acc' & en & got & rest & r' & st' & (E & Hp & _ & Hend & _) & _).
  destruct Hend as [(Hlt & _)|(_ & -> & Hg)]; [lia|].
  exists acc', r', st'. now rewrite Hp.
Qed.

(* for any buffer size n, so that proofs do not carry the unary numeral 4096 (read_all instantiates it) *)
Lemma read_to_end n : (0 < n)%nat -> (len body < ALL)%N ->
  exists acc' r',
    take fixed (S (List.length x)) ALL n r (mkS x e) [] [] = (acc', EndEof, r', mkS tail e, []) /\
    r' <> BUpgrade /\ pieces_bytes acc' = body.
Proof.
  intros Hn Hm. destruct (whole_take W _ ALL n [] [] Hn fuel_whole)
    as (acc' & en & got & rest & r' & st' & (E & Hp & Hb & Hend & _) & Hr).
  destruct Hend as [(_ & -> & -> & -> & _)|(Hle & _)]; [|lia].
  exists acc', r'. rewrite app_nil_r in Hb. subst got. auto.
Qed.

Lemma read_all : (len body < ALL)%N ->
  exists acc' r',
    take fixed (S (List.length x)) ALL 4096 r (mkS x e) [] [] = (acc', EndEof, r', mkS tail e, []) /\
    r' <> BUpgrade /\ pieces_bytes acc' = body.
Proof. exact (read_to_end 4096 (Nat.lt_0_succ _)). Qed.

(* the first round stopped at r; `last`: its request ends the connection *)
Variables (st : stream) (got : list bytes) (last : bool).
Hypothesis first : ahead fixed st = (got, AHolds r (mkS x e) last).

Lemma not_released_by_partial_read m : (m <= len body)%N ->
  ahead_two fixed (RlReadPart m) st = (got, []).
Proof.
  intros Hm. destruct (read_part m Hm) as (acc' & r' & st' & T & _).
  eapply ahead_two_read_count; eassumption.
Qed.

Variables (nxt : list bytes) (stop : ahead_stop).
Hypothesis after : ahead fixed (mkS tail e) = (nxt, stop).

Lemma released_by_going_away : last = false -> ahead_two fixed RlGoesAway st = (got, nxt).
Proof.
  intros L. rewrite L in first. rewrite (ahead_two_goes_away _ _ _ _ _ first). now rewrite drop_whole, after.
Qed.

Lemma released_by_reading_to_end : last = false -> (len body < ALL)%N ->
  ahead_two fixed RlReadAll st = (got, nxt).
Proof.
  intros L Hall. rewrite L in first.
  destruct (read_all Hall) as (acc' & r' & T & Hr & _).
  rewrite (ahead_two_read_all _ _ _ _ _ _ _ _ _ first T Hr). now rewrite after.
Qed.
End Whole.

Arguments read_part {r x e body tail} W m.
Arguments read_all {r x e body tail} W.
Arguments not_released_by_partial_read {r x e body tail} W {st got last} first m.
Arguments released_by_going_away {r x e body tail} W {st got last} first {nxt stop} after.
Arguments released_by_reading_to_end {r x e body tail} W {st got last} first {nxt stop} after.
