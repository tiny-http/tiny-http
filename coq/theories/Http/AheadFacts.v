(* Http/AheadFacts.v — read-ahead on one connection (C11), part 1: the threshold of the body-kind
   decision (which requests give the socket reader back at once); one step of `ahead_loop` for a
   request whose body is read beforehand (`preread`) and for one that keeps the reader (`holder`);
   a pipeline of requests with absent or small (<= 1024 bytes) bodies is obtainable as a whole while
   none has been answered; a request with a large / chunked body, or an upgrade, stops the read-ahead. *)
From TH Require Import Base.Bytes Base.BytesFacts Base.RadixFacts Http.Response Http.Request Http.Body
                       Http.Serve Http.Ahead Http.HeadFacts Http.FramingBodyFacts Http.ServeGoodFacts.
From Coq Require Import Lia.

(* v is an accepted Content-Length value denoting n: a non-empty string of digits below 2^64 *)
Definition cl_value (v : bytes) (n : N) : Prop :=
  v <> [] /\ forallb is_digit v = true /\ parse_dec v = Some n.
Definition absent (n : string) (hs : list header) : bool :=
  match header_value n hs with None => true | Some _ => false end.
(* no Expect header, or Expect: 100-continue (anything else is refused with 417) *)
Definition expect_ok (hs : list header) : bool :=
  match header_value "Expect" hs with None => true | Some v => eq_ci v (s "100-continue") end.
Definition expects (hs : list header) : bool := negb (absent "Expect" hs).
Definition has_te (hs : list header) : bool := negb (absent "Transfer-Encoding" hs).

Lemma absent_none n hs : absent n hs = true <-> header_value n hs = None.
Proof. unfold absent. destruct (header_value n hs); split; congruence. Qed.

Lemma cl_value_print n : (n < USIZE_BOUND)%N -> cl_value (print_dec n) n.
Proof.
  intros H. destruct (print_dec_digits n) as [H1 H2]. split; [exact H1|]. split; [exact H2|].
  now apply parse_dec_print.
Qed.

Lemma cl_value_bound v n : cl_value v n -> (n < USIZE_BOUND)%N.
Proof. intros (_ & _ & H). unfold parse_dec in H. now apply parse_sound in H. Qed.

Lemma declared_value hs v n : header_value "Content-Length" hs = Some v -> cl_value v n -> declared hs = Some n.
Proof. intros H (_ & _ & Hp). unfold declared. now rewrite H. Qed.

Lemma framing_fixed_ok hs :
  expect_ok hs = true ->
  match header_value "Content-Length" hs with None => True | Some v => exists n, cl_value v n end ->
  framing fixed hs
  = FrOk (kind_of (wants_upgrade hs) (if has_te hs then None else declared hs) (has_te hs) (expects hs))
         (if has_te hs then None else declared hs) (expects hs).
Proof.
  intros Hex Hcl. rewrite framing_fixed_rest.
  2:{ destruct (header_value "Content-Length" hs) as [v|]; [|exact I].
      destruct Hcl as (n & Hne & Hd & Hp). rewrite Hp. repeat split; [exact Hne|exact Hd|discriminate]. }
  unfold framing_rest, expectation, expect_ok, expects, has_te, absent in *.
  destruct (header_value "Expect" hs) as [x|]; [rewrite Hex|];
    destruct (header_value "Transfer-Encoding" hs); reflexivity.
Qed.

Lemma framing_plain hs :
  header_value "Transfer-Encoding" hs = None -> header_value "Expect" hs = None -> wants_upgrade hs = false ->
  match header_value "Content-Length" hs with None => True | Some v => exists n, cl_value v n end ->
  framing fixed hs = FrOk (kind_of false (declared hs) false false) (declared hs) false.
Proof.
  intros Hte Hex Hup Hcl. rewrite (framing_fixed_ok hs); [|unfold expect_ok; now rewrite Hex|exact Hcl].
  unfold has_te, expects, absent. now rewrite Hte, Hex, Hup.
Qed.

(* C11, the threshold: the body is read before the request is delivered (and the reader given back)
   exactly when ... *)
Theorem threshold hs n :
  (exists bl ex, framing fixed hs = FrOk (KBuffered n) bl ex) <->
  header_value "Transfer-Encoding" hs = None /\
  (exists v, header_value "Content-Length" hs = Some v /\ cl_value v n) /\
  (0 < n <= 1024)%N /\
  header_value "Expect" hs = None /\
  wants_upgrade hs = false.
Proof.
  split.
  - intros (bl & ex & H). apply framing_fixed_char in H as (cl0 & Hc & Hbl & Hex & Hk).
    symmetry in Hk. apply kind_of_buffered in Hk as (Hup & -> & -> & Hn0 & Hn).
    destruct (header_value "Transfer-Encoding" hs); [discriminate|]. subst cl0.
    destruct (header_value "Expect" hs); [discriminate|].
    destruct (header_value "Content-Length" hs) as [v|]; [|discriminate].
    destruct Hc as (H1 & H2 & H3 & _). split; [reflexivity|]. split; [exists v; repeat split; assumption|].
    split; [lia|auto].
  - intros (Hte & (v & Hcl & Hv) & Hn & Hex & Hup).
    exists (Some n), false. rewrite (framing_plain hs Hte Hex Hup) by (rewrite Hcl; eauto).
    rewrite (declared_value hs v n Hcl Hv), (proj2 (kind_of_buffered false (Some n) false false n)); [reflexivity|].
    repeat split; lia.
Qed.

(* a delivered request either had its body (n bytes, none for KEmpty) read beforehand ... *)
Definition preread (k : body_kind) : option N :=
  match k with
  | KEmpty => Some 0%N
  | KBuffered n => Some n
  | KLimited _ | KChunked | KUpgrade => None
  end.
(* ... or keeps the reader through which the body is streamed *)
Definition holder (k : body_kind) : option breader :=
  match k with
  | KLimited n => Some (BLimited n)
  | KChunked => Some (BChunked None false)
  | KUpgrade => Some BUpgrade
  | KEmpty | KBuffered _ => None
  end.

Section Steps.
Variables (c : cfg) (f : nat) (st : stream) (acc : list bytes).
Variables (m url : bytes) (ver : version) (hs : list header) (rest : bytes).
Hypothesis H : read_head c (sbytes st) = HeadOk m url ver hs rest.
Hypothesis V : ver_gt_11 ver = false.

Lemma ahead_step_preread k bl ex n : framing c hs = FrOk k bl ex -> preread k = Some n ->
  last_request ver hs = false -> (n <= len rest)%N ->
  ahead_loop c (S f) st acc = ahead_loop c f (mkS (skipn (N.to_nat n) rest) (seof st)) (url :: acc).
Proof.
  intros F K L Hn. cbn [ahead_loop]. rewrite H, F, V.
  destruct k as [| |n'|n'|]; try discriminate; injection K as <-; rewrite L; [reflexivity|].
  destruct (N.leb_spec n' (len rest)); [reflexivity|lia].
Qed.

Lemma ahead_step_holds k bl ex rd : framing c hs = FrOk k bl ex -> holder k = Some rd ->
  ahead_loop c (S f) st acc = (frev (url :: acc), AHolds rd (mkS rest (seof st)) (last_request ver hs)).
Proof. intros F K. cbn [ahead_loop]. rewrite H, F, V. destruct k; inversion K; reflexivity. Qed.
End Steps.

Lemma ahead_step_eof c f st acc : read_head c (sbytes st) = HeadEof ->
  ahead_loop c (S f) st acc = (frev acc, AEnd).
Proof. intros H. cbn [ahead_loop]. now rewrite H. Qed.

Definition hdrs (r : req_head) : list header := map field_header (rq_headers r).

Record pelem := mkPE { pe_head : req_head; pe_ows : list (bytes * bytes); pe_body : bytes }.
Definition render_elem (e : pelem) : bytes := render_req_head (pe_head e) (pe_ows e) ++ pe_body e.
Definition render_pipe (es : list pelem) : bytes := List.concat (map render_elem es).
Definition pe_target (e : pelem) : bytes := rq_target (pe_head e).
Definition targets (es : list pelem) : list bytes := map pe_target es.

(* a well-formed head (version 0.9, 1.0 or 1.1) without Transfer-Encoding and Expect that keeps
   the connection alive: no Connection header containing close / upgrade, and for HTTP/1.0 a
   Connection header containing keep-alive *)
Definition small_head (r : req_head) : bool :=
  wf_head r && absent "Transfer-Encoding" (hdrs r) && absent "Expect" (hdrs r)
  && negb (last_request (rq_version r) (hdrs r)).
Definition small_body (hs : list header) (body : bytes) : Prop :=
  match header_value "Content-Length" hs with
  | None => body = []
  | Some v => exists n, cl_value v n /\ (n <= 1024)%N /\ len body = n
  end.
Definition small_elem (e : pelem) : Prop :=
  small_head (pe_head e) = true /\ wf_ows (pe_ows e) = true /\ small_body (hdrs (pe_head e)) (pe_body e).

Lemma last_request_false_no_upgrade ver hs : last_request ver hs = false -> wants_upgrade hs = false.
Proof.
  unfold last_request, wants_upgrade. destruct (header_value "Connection" hs) as [v|]; [|reflexivity].
  destruct (contains_sub (s "close") (lower v)); [discriminate|].
  destruct (contains_sub (s "upgrade") (lower v)); [discriminate|reflexivity].
Qed.

Lemma small_head_inv r : small_head r = true ->
  wf_head r = true /\ header_value "Transfer-Encoding" (hdrs r) = None /\
  header_value "Expect" (hdrs r) = None /\ last_request (rq_version r) (hdrs r) = false.
Proof.
  unfold small_head. intros Hs.
  apply andb_true_iff in Hs as [Hs Hl]. apply andb_true_iff in Hs as [Hs Hex]. apply andb_true_iff in Hs as [Hw Hte].
  apply negb_true_iff in Hl. apply absent_none in Hte, Hex. auto.
Qed.

Lemma framing_small r b : small_head r = true -> small_body (hdrs r) b ->
  exists k bl, framing fixed (hdrs r) = FrOk k bl false /\ preread k = Some (len b).
Proof.
  intros Hs Hb. apply small_head_inv in Hs as (_ & Hte & Hex & Hl).
  apply last_request_false_no_upgrade in Hl.
  exists (kind_of false (declared (hdrs r)) false false), (declared (hdrs r)).
  unfold small_body in Hb. destruct (header_value "Content-Length" (hdrs r)) as [v|] eqn:Hcl.
  - destruct Hb as (n & Hv & Hn & <-). split; [apply (framing_plain _ Hte Hex Hl); rewrite Hcl; eauto|].
    rewrite (declared_value _ v _ Hcl Hv). unfold kind_of.
    destruct (N.eqb_spec (len b) 0) as [->|_]; [reflexivity|]. apply N.leb_le in Hn. now rewrite Hn.
  - subst b. split; [apply (framing_plain _ Hte Hex Hl); now rewrite Hcl|]. unfold declared. now rewrite Hcl.
Qed.

Lemma small_step e x eof f acc : small_elem e ->
  ahead_loop fixed (S f) (mkS (render_elem e ++ x) eof) acc
  = ahead_loop fixed f (mkS x eof) (pe_target e :: acc).
Proof.
  destruct e as [r o b]. unfold small_elem, render_elem, pe_target. cbn [pe_head pe_ows pe_body].
  intros (Hs & Ho & Hb). rewrite <- app_assoc.
  destruct (framing_small r b Hs Hb) as (k & bl & F & K).
  apply small_head_inv in Hs as (Hw & _ & _ & Hl).
  pose proof (head_roundtrip r o (b ++ x) Hw Ho) as Hh. fold (hdrs r) in Hh.
  erewrite ahead_step_preread;
    [|exact Hh|exact (wf_head_version r Hw)|exact F|exact K|exact Hl|rewrite len_app; lia].
  cbn [seof]. now rewrite skipn_len.
Qed.

Lemma after_run : forall es x eof fuel acc, Forall small_elem es -> (List.length es < fuel)%nat ->
  exists f, ahead_loop fixed fuel (mkS (render_pipe es ++ x) eof) acc
            = ahead_loop fixed (S f) (mkS x eof) (rev (targets es) ++ acc).
Proof.
  induction es as [|e es IH]; intros x eof fuel acc Hes Hf; (destruct fuel as [|fuel]; [inversion Hf|]).
  - exists fuel. reflexivity.
  - inversion Hes as [|? ? He Hes']; subst.
    unfold render_pipe. cbn [map List.concat]. fold (render_pipe es).
    rewrite <- app_assoc, (small_step e _ eof _ acc He).
    destruct (IH x eof fuel (pe_target e :: acc) Hes') as [f ->]; [cbn [List.length] in Hf; lia|].
    exists f. unfold targets. cbn [map rev]. now rewrite <- app_assoc.
Qed.

Lemma render_pipe_length es : (List.length es <= List.length (render_pipe es))%nat.
Proof.
  induction es as [|e es IH]; [cbn; lia|]. unfold render_pipe, render_elem in *. cbn [map List.concat List.length].
  rewrite !app_length. pose proof (render_req_head_length (pe_head e) (pe_ows e)). lia.
Qed.

(* AEnd is the end of the input, not the end of the fuel *)
Theorem small_pipeline_fuel es tail eof fuel : Forall small_elem es -> read_head fixed tail = HeadEof ->
  (List.length es < fuel)%nat ->
  ahead_loop fixed fuel (mkS (render_pipe es ++ tail) eof) [] = (targets es, AEnd).
Proof.
  intros Hes Ht Hf. destruct (after_run es tail eof fuel [] Hes Hf) as [f ->].
  rewrite ahead_step_eof, app_nil_r by exact Ht. now rewrite frev_rev_id.
Qed.
Lemma small_pipeline_fuel_ok es tail :
  (List.length es < S (List.length (render_pipe es ++ tail)))%nat.
Proof. rewrite app_length. pose proof (render_pipe_length es). lia. Qed.

Definition limited_head (r : req_head) (n : N) : Prop :=
  wf_head r = true /\ absent "Transfer-Encoding" (hdrs r) = true /\ wants_upgrade (hdrs r) = false /\
  expect_ok (hdrs r) = true /\
  exists v, header_value "Content-Length" (hdrs r) = Some v /\ cl_value v n /\
            ((1024 < n)%N \/ ((0 < n)%N /\ expects (hdrs r) = true)).
(* a Transfer-Encoding header (any Content-Length is ignored, but a malformed one is refused) *)
Definition chunked_head (r : req_head) : Prop :=
  wf_head r = true /\ has_te (hdrs r) = true /\ wants_upgrade (hdrs r) = false /\
  expect_ok (hdrs r) = true /\
  match header_value "Content-Length" (hdrs r) with None => True | Some v => exists n, cl_value v n end.

(* limited_head from conditions that evaluation decides on a concrete head whose Content-Length is printed *)
Lemma limited_head_intro r n :
  wf_head r = true -> absent "Transfer-Encoding" (hdrs r) = true -> wants_upgrade (hdrs r) = false ->
  expect_ok (hdrs r) = true -> header_value "Content-Length" (hdrs r) = Some (print_dec n) ->
  (n < USIZE_BOUND)%N -> ((1024 <? n) || (0 <? n) && expects (hdrs r))%N = true ->
  limited_head r n.
Proof.
  intros Hw Hte Hup Hex Hcl Hn Hk. repeat (split; [assumption|]).
  exists (print_dec n). split; [exact Hcl|]. split; [now apply cl_value_print|].
  apply orb_true_iff in Hk as [Hk|Hk]; [left; now apply N.ltb_lt|right].
  apply andb_true_iff in Hk as [Hk He]. split; [now apply N.ltb_lt|exact He].
Qed.

Lemma framing_limited_head r n : limited_head r n ->
  framing fixed (hdrs r) = FrOk (KLimited n) (Some n) (expects (hdrs r)).
Proof.
  intros (_ & Hte & Hup & Hex & v & Hcl & Hv & Hn).
  rewrite (framing_fixed_ok (hdrs r) Hex) by (rewrite Hcl; eauto).
  unfold has_te. rewrite Hte, Hup, (declared_value _ v n Hcl Hv). cbn [negb]. unfold kind_of.
  destruct (N.eqb_spec n 0) as [|_]; [lia|].
  destruct Hn as [Hn|[_ Hn]].
  - destruct (N.leb_spec n 1024); [lia|reflexivity].
  - rewrite Hn. cbn [negb]. now rewrite andb_false_r.
Qed.

Lemma framing_chunked_head r : chunked_head r ->
  framing fixed (hdrs r) = FrOk KChunked None (expects (hdrs r)).
Proof.
  intros (_ & Hte & Hup & Hex & Hcl). rewrite (framing_fixed_ok (hdrs r) Hex Hcl). now rewrite Hte, Hup.
Qed.

(* C11, the blocking half: after a run of small requests, a request whose body is streamed is
   delivered and holds the reader; NOTHING behind its head is looked at: `rest` (its body and
   whatever follows) is left on the connection; the flag says whether the holder ends the connection *)
Lemma holds_streamed es r o rest eof k bl ex rd :
  Forall small_elem es -> wf_head r = true -> wf_ows o = true ->
  framing fixed (hdrs r) = FrOk k bl ex -> holder k = Some rd ->
  ahead fixed (mkS (render_pipe es ++ render_req_head r o ++ rest) eof)
  = (targets es ++ [rq_target r], AHolds rd (mkS rest eof) (last_request (rq_version r) (hdrs r))).
Proof.
  intros Hes Hw Ho F K. unfold ahead. cbn [sbytes]. set (x := render_req_head r o ++ rest).
  destruct (after_run es x eof _ [] Hes (small_pipeline_fuel_ok es x)) as [f ->]. subst x. rewrite app_nil_r.
  pose proof (head_roundtrip r o rest Hw Ho) as Hh. fold (hdrs r) in Hh.
  erewrite ahead_step_holds; [|exact Hh|exact (wf_head_version r Hw)|exact F|exact K].
  cbn [seof]. rewrite frev_rev. cbn [rev]. now rewrite rev_involutive.
Qed.
Arguments holds_streamed {es r o} rest eof {k bl ex rd}.

(* a request with Connection: upgrade owns the raw connection, and always ends the connection *)
Definition upgrade_head (r : req_head) : Prop :=
  wf_head r = true /\ wants_upgrade (hdrs r) = true /\ expect_ok (hdrs r) = true /\
  match header_value "Content-Length" (hdrs r) with None => True | Some v => exists n, cl_value v n end.

Lemma framing_upgrade_head r : upgrade_head r -> exists bl ex, framing fixed (hdrs r) = FrOk KUpgrade bl ex.
Proof.
  intros (_ & Hup & Hex & Hcl). rewrite (framing_fixed_ok (hdrs r) Hex Hcl), Hup. unfold kind_of. eauto.
Qed.

Lemma wants_upgrade_last ver hs : wants_upgrade hs = true -> last_request ver hs = true.
Proof.
  unfold last_request, wants_upgrade. destruct (header_value "Connection" hs) as [v|]; [|discriminate].
  intros ->. destruct (contains_sub (s "close") (lower v)); reflexivity.
Qed.
