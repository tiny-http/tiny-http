(* Props/C17Api.v — C17 (and C07) at the level of the Server's receive API driven by ONE thread, each call running to
   its return before the next operation starts (harness `su`): u = unblock(), q k = request k arrives, t T =
   recv_timeout(T), y = try_recv(), r = recv() / incoming_requests().next().
   `su_run` (Conc/ServerApi.v) is the executable glue that plays such a script on the queue model Conc/MsgQueue.v
   (Instances.mq_step, repaired tree, one receiver); `su_spec` is the FIFO reading of the property.
   Each statement in a few lines from Conc/ServerApiFacts.v.  ALL scripts, any length. *)
From Coq Require Import List Lia.
Import ListNotations.
From TH Require Import Conc.MsgQueue Conc.Instances Conc.ServerApi Conc.ServerApiFacts.

(* the glue never gets stuck: every model step it takes is enabled, the blocked-call branches reach Idle again
   within the 4 Resume rounds the glue allows, the receiver is Idle at the end ... *)
Theorem c17_api_never_stuck : forall ops : list su_op, su_run ops <> None.
Proof. intros ops. unfold su_run. rewrite (su_run_f_is_spec 3). discriminate. Qed.
Print Assumptions c17_api_never_stuck.

(* ... in fact ONE Resume step brings every blocked call back (any fuel >= 1 gives the same, specified, results);
   with no Resume at all a blocked call stays blocked (Examples below) *)
Theorem c17_api_resume_bound :
  forall (fuel : nat) (ops : list su_op), 1 <= fuel -> su_run_f fuel ops = Some (su_spec ops).
Proof. intros [|f] ops Hf; [lia|]. apply su_run_f_is_spec. Qed.
Print Assumptions c17_api_resume_bound.

(* the model behaves as ONE fifo of requests and unblock tokens: full strength, all scripts *)
Theorem c17_api_is_fifo : forall ops : list su_op, su_run ops = Some (su_spec ops).
Proof. exact (su_run_f_is_spec 3). Qed.
Print Assumptions c17_api_is_fifo.

(* the script is a run of the queue model from its initial state (labels su_trace [] ops), so every theorem about
   MsgQueue.run (Props/C07.v, C07Glue.v, C17.v) applies to it; between operations the receiver is Idle and the queue
   is the fifo of the specification *)
Theorem c17_api_is_model_run :
  forall ops : list su_op,
    exists s : st nat,
      run nat mq_MS mq_EPS true (init nat 1) (su_trace [] ops) = Some s /\
      su_run_from su_fuel su_init ops = Some (s, su_spec ops) /\
      rs nat s = [Idle] /\ q nat s = map enc (su_final_fifo ops).
Proof.
  intros ops. destruct (su_run_ok 3 ops su_init [] su_inv_init) as (s' & E & [Hr Hq] & R & _).
  exists s'. repeat split; auto.
Qed.
Print Assumptions c17_api_is_model_run.

(* unblock releases exactly one call: the `u` of a script are as many as the receive calls that consumed a token
   (su_token_calls: a y / t / r executed when the oldest fifo entry is a token) plus the tokens still queued ... *)
Theorem c17_api_unblock_releases_exactly_one :
  forall ops : list su_op,
    su_unblocks ops = su_token_calls [] ops + fifo_toks (su_final_fifo ops).
Proof. intros ops. exact (proj2 (su_fifo_once ops)). Qed.
Print Assumptions c17_api_unblock_releases_exactly_one.

(* ... and these are the model's own counters: `tokrets` counts exactly those calls plus the hanging recv calls the
   harness released with an unblock of its own, `unblocks` the script's u plus those; `got` / `pushed` / the queue
   are the values handed out / arrived / waiting; `tlog` has one entry per timed call that returned by time *)
Theorem c17_api_model_counters :
  forall (ops : list su_op) (s : st nat) (res : list su_res),
    su_run_from su_fuel su_init ops = Some (s, res) ->
    res = su_spec ops /\
    got nat s = su_vals res /\ pushed nat s = su_pushes ops /\ elems nat (q nat s) = fifo_reqs (su_final_fifo ops) /\
    tokrets nat s = su_token_calls [] ops + su_hangs res /\ unblocks nat s = su_unblocks ops + su_hangs res /\
    ntok nat (q nat s) = fifo_toks (su_final_fifo ops) /\ length (tlog nat s) = su_fulls res.
Proof.
  intros ops s res H. destruct (su_reach _ _ _ H) as (Hres & [_ Hq] & _ & [G Pu U K L _]).
  split; [exact Hres|]. rewrite Hq, elems_enc, ntok_enc. repeat split; auto.
Qed.
Print Assumptions c17_api_model_counters.

(* the requests handed out (the SrVal results, in order) followed by the requests still in the fifo are the arguments
   of the `q` operations in order: nothing lost, duplicated or reordered, whatever unblocks and time-outs occur *)
Theorem c17_api_requests_in_order_once :
  forall ops : list su_op,
    su_vals (su_spec ops) ++ fifo_reqs (su_final_fifo ops) = su_pushes ops.
Proof. intros ops. exact (proj1 (su_fifo_once ops)). Qed.
Print Assumptions c17_api_requests_in_order_once.

(* try_recv never blocks.  Whole scripts: the results are, one by one, the results of the script's receive calls, and
   a `y` yields a value or SrNone true, never SrHang / SrNone false / SrErr (res_shape) ... *)
Theorem c17_api_try_never_blocks :
  forall (ops : list su_op) (res : list su_res),
    su_run ops = Some res -> Forall2 res_shape (filter is_recv ops) res.
Proof. intros ops res. unfold su_run. rewrite (su_run_f_is_spec 3). intros [= <-]. apply su_spec_shapes. Qed.
Print Assumptions c17_api_try_never_blocks.

(* ... and in every state a script can reach, a `y` is ONE enabled step of the model (CallTry), after which the
   receiver is Idle, and it takes no model time *)
Theorem c17_api_try_is_one_step :
  forall (pre : list su_op) (s : st nat) (res : list su_res),
    su_run_from su_fuel su_init pre = Some (s, res) ->
    exists (s' : st nat) (r : su_res),
      su_step s SuY = Some (s', Some r) /\ su_mstep s (CallTry nat 0) = Some s' /\
      su_idle s' = true /\ now nat s' = now nat s /\ tlog nat s' = tlog nat s /\ res_shape SuY r.
Proof.
  intros pre s res H. destruct (su_reach _ _ _ H) as (_ & HI & _ & _).
  destruct (su_step_ok 3 s _ SuY HI) as (s' & E & HI' & R & [_ _ _ _ Ht]).
  assert (Hr : exists r, snd (su_spec_step (su_final_fifo pre) SuY) = Some r /\ res_shape SuY r).
  { destruct (su_final_fifo pre) as [|[v|] fifo]; cbn; eexists; split; try reflexivity; exact I. }
  destruct Hr as (r & Er & Hs). rewrite Er in E. exists s', r.
  split; [exact E|]. split; [|split; [exact (su_inv_idle _ _ HI')|]].
  - cbn [su_labels run] in R. unfold su_mstep, mq_step.
    destruct (step nat mq_MS mq_EPS true s (CallTry nat 0)) as [s1|]; [exact R|discriminate].
  - cbn [timed_wait] in Ht. destruct Ht as [Hn Hl]. auto.
Qed.
Print Assumptions c17_api_try_is_one_step.

(* recv_timeout(T) returns "nothing, by time" exactly when the fifo is empty at the call; then the model logs the
   return (call time, T, return time) with T <= return - call <= 2T + EPS (here: exactly T after the call, the
   harness advancing the clock to the deadline); every other outcome (value / token) takes no model time *)
Theorem c17_api_timed_bounds :
  forall (pre : list su_op) (T : nat) (s : st nat) (res : list su_res),
    su_run_from su_fuel su_init pre = Some (s, res) ->
    exists (s' : st nat) (r : su_res),
      su_step s (SuT T) = Some (s', Some r) /\
      (r = SrNone false <-> su_final_fifo pre = []) /\
      (r = SrNone false ->
         exists t1, tlog nat s' = tlog nat s ++ [(now nat s, T, t1)] /\ now nat s' = t1 /\
                    now nat s + T <= t1 /\ t1 <= now nat s + 2 * T + mq_EPS) /\
      (r <> SrNone false -> tlog nat s' = tlog nat s /\ now nat s' = now nat s).
Proof.
  intros pre T s res H. destruct (su_reach _ _ _ H) as (_ & HI & _ & _).
  destruct (su_step_ok 3 s _ (SuT T) HI) as (s' & E & _ & _ & [_ _ _ _ Ht]).
  change (su_step_f 4 s (SuT T)) with (su_step s (SuT T)) in E.
  destruct (su_final_fifo pre) as [|[v|] fifo]; cbn [su_spec_step snd timed_wait] in E, Ht; destruct Ht as [Hn Hl];
    eexists; eexists; (split; [exact E|]).
  - split; [tauto|]. split; [|congruence]. intros _. exists (now nat s + T). repeat split; auto; lia.
  - split; [split; discriminate|]. split; [discriminate|auto].
  - split; [split; discriminate|]. split; [discriminate|auto].
Qed.
Print Assumptions c17_api_timed_bounds.

(* the whole log after a script: one entry per SrNone false result, each exactly T after its call, hence inside the
   bounds of c17_timed_lower / c17_timed_upper (reused through c17_api_is_model_run) *)
Theorem c17_api_tlog_bounds :
  forall (ops : list su_op) (s : st nat) (res : list su_res),
    su_run_from su_fuel su_init ops = Some (s, res) ->
    length (tlog nat s) = su_fulls res /\
    forall t0 T t1, In (t0, T, t1) (tlog nat s) ->
      t1 = t0 + T /\ T <= (t1 - t0) + mq_MS /\ t1 <= t0 + 2 * T + mq_EPS.
Proof.
  intros ops s res H. destruct (su_reach _ _ _ H) as (_ & _ & R & [_ _ _ _ L X]). split; [exact L|].
  intros t0 T t1 Hin. split; [|split].
  - destruct (X _ _ _ Hin) as [[]|Hx]. exact Hx.
  - exact (timed_lower_bound nat mq_MS mq_MS_pos mq_EPS true 1 _ _ R _ _ _ Hin).
  - exact (timed_upper_bound nat mq_MS mq_MS_pos mq_EPS true 1 _ _ R _ _ _ Hin).
Qed.
Print Assumptions c17_api_tlog_bounds.

(* what the real server did on two scripts (times in model units, 0.1 ms) *)
Definition ex_script1 : list su_op := [SuU; SuT 3000; SuT 2000; SuQ 1; SuQ 2; SuU; SuY; SuR; SuR; SuY; SuR].
Definition ex_script2 : list su_op := [SuQ 5; SuU; SuT 3000; SuT 3000; SuY; SuU; SuU; SuR; SuR; SuT 1000].

(* N fast, N full, 1, 2, E, N, hang *)
Example c17_api_example1 :
  su_run ex_script1 = Some [SrNone true; SrNone false; SrVal 1; SrVal 2; SrErr; SrNone true; SrHang].
Proof. vm_compute. reflexivity. Qed.
Example c17_api_example1_spec :
  su_spec ex_script1 = [SrNone true; SrNone false; SrVal 1; SrVal 2; SrErr; SrNone true; SrHang].
Proof. vm_compute. reflexivity. Qed.

(* 5 fast, N fast, N, E, E, N full *)
Example c17_api_example2 :
  su_run ex_script2 = Some [SrVal 5; SrNone true; SrNone true; SrErr; SrErr; SrNone false].
Proof. vm_compute. reflexivity. Qed.
Example c17_api_example2_spec :
  su_spec ex_script2 = [SrVal 5; SrNone true; SrNone true; SrErr; SrErr; SrNone false].
Proof. vm_compute. reflexivity. Qed.

(* the hypothesis of the per-state theorems holds (it does for every script, by c17_api_is_model_run); the model's
   state after script 1: one timed call returned by time (t 2000, called at time 0: t 3000 consumed the token at once),
   one hanging recv released by the harness's own unblock (so 3 unblocks, 3 token returns) *)
Example c17_api_example1_state :
  match su_run_from su_fuel su_init ex_script1 with
  | Some (s, res) => tlog nat s = [(0, 2000, 2000)] /\ now nat s = 2000 /\ got nat s = [1; 2] /\ pushed nat s = [1; 2] /\
                     unblocks nat s = 3 /\ tokrets nat s = 3 /\ q nat s = [] /\ su_hangs res = 1
  | None => False
  end.
Proof. vm_compute. repeat split; reflexivity. Qed.

(* the observers of c17_api_unblock_releases_exactly_one on concrete scripts: 2 unblocks = 2 token calls + 0 left; 2 unblocks = 1 token call + 1 left,
   request 8 still queued behind it *)
Example c17_api_example_counts :
  su_unblocks ex_script1 = 2 /\ su_token_calls [] ex_script1 = 2 /\ su_final_fifo ex_script1 = [] /\
  su_unblocks [SuU; SuQ 7; SuU; SuQ 8; SuR; SuR] = 2 /\ su_token_calls [] [SuU; SuQ 7; SuU; SuQ 8; SuR; SuR] = 1 /\
  su_final_fifo [SuU; SuQ 7; SuU; SuQ 8; SuR; SuR] = [None; Some 8] /\
  su_spec [SuU; SuQ 7; SuU; SuQ 8; SuR; SuR] = [SrErr; SrVal 7] /\
  su_pushes [SuU; SuQ 7; SuU; SuQ 8; SuR; SuR] = [7; 8].
Proof. vm_compute. repeat split; reflexivity. Qed.

(* the labels of the model that script 2 stands for *)
Example c17_api_example2_trace :
  su_trace [] ex_script2 =
  [Push nat 5 None; Unblock nat None; CallTimed nat 0 3000; CallTimed nat 0 3000; CallTry nat 0; Unblock nat None;
   Unblock nat None; CallPop nat 0; CallPop nat 0; CallTimed nat 0 1000; Tick nat 1000; Timeout nat 0; Resume nat 0].
Proof. vm_compute. reflexivity. Qed.

(* the bound of c17_api_resume_bound is tight: without a Resume step a blocked call does not return *)
Example c17_api_fuel0_timed : su_run_f 0 [SuT 5] = None /\ su_run_f 1 [SuT 5] = Some [SrNone false].
Proof. vm_compute. split; reflexivity. Qed.
Example c17_api_fuel0_recv : su_run_f 0 [SuR] = None /\ su_run_f 1 [SuR] = Some [SrHang].
Proof. vm_compute. split; reflexivity. Qed.
