(* Http/C13Facts.v — same_stream, the relation in which C13 states independence of the segmentation,
   and how a "function of the logical stream" theorem (ReaderOpFacts.computes) gives such a statement. *)
From TH Require Import Http.ReaderOp Http.ReaderOpFacts.

(* "the same bytes and the same end-of-stream flag, another segmentation / another buffering" *)
Definition same_stream (br1 br2 : bufreader) : Prop :=
  wf br1 /\ wf br2 /\ contents br1 = contents br2 /\ br_eof br1 = br_eof br2.

Lemma same_stream_refl br : wf br -> same_stream br br.
Proof. unfold same_stream. auto. Qed.

Lemma same_stream_br_init segs1 segs2 e :
  List.concat segs1 = List.concat segs2 -> same_stream (br_init segs1 e) (br_init segs2 e).
Proof.
  intros H. unfold same_stream. rewrite !contents_br_init.
  repeat split; auto using wf_br_init.
Qed.

Lemma same_stream_holds br1 br2 : same_stream br1 br2 ->
  holds br1 (contents br1) (br_eof br1) /\ holds br2 (contents br1) (br_eof br1).
Proof. intros (W1 & W2 & Hc & He). unfold holds. auto. Qed.

Lemma holds_same_stream br1 br2 x e : holds br1 x e -> holds br2 x e -> same_stream br1 br2.
Proof. intros (W1 & C1 & E1) (W2 & C2 & E2). unfold same_stream. repeat split; auto; congruence. Qed.

Lemma same_stream_of_fn {R : Type} (op : bufreader -> R * bufreader) fn : computes op fn ->
  forall br1 br2, same_stream br1 br2 ->
  fst (op br1) = fst (op br2) /\ same_stream (snd (op br1)) (snd (op br2)).
Proof.
  intros H br1 br2 Hs. destruct (same_stream_holds br1 br2 Hs) as (H1 & H2).
  destruct (H br1 _ _ H1) as (b1 & -> & Hb1). destruct (H br2 _ _ H2) as (b2 & -> & Hb2).
  split; [reflexivity|]. exact (holds_same_stream _ _ _ _ Hb1 Hb2).
Qed.
