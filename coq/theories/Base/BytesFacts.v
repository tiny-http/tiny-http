(* Base/BytesFacts.v — facts about lists and the byte-string helpers that several files use. *)
From TH Require Import Base.Bytes.

Lemma beq_refl a : beq a a = true.
Proof. induction a as [|x t IH]; cbn [beq]; [reflexivity|]. now rewrite Ascii.eqb_refl, IH. Qed.

Lemma beq_eq a b : beq a b = true <-> a = b.
Proof.
  split; [|intros ->; apply beq_refl].
  revert b; induction a as [|x t IH]; intros [|y u]; cbn [beq]; try discriminate; [reflexivity|].
  intros H. apply andb_true_iff in H as [H1 H2]. apply Ascii.eqb_eq in H1. apply IH in H2. congruence.
Qed.

Lemma frev_rev {A} (x : list A) : frev x = rev x.
Proof. unfold frev. now rewrite rev_append_rev, app_nil_r. Qed.

Lemma frev_cons {A} (d : A) l : frev (d :: l) = frev l ++ [d].
Proof. now rewrite !frev_rev. Qed.

Lemma frev_rev_id {A} (l : list A) : frev (rev l) = l.
Proof. rewrite frev_rev. apply rev_involutive. Qed.

Lemma forallb_impl {A} (p q : A -> bool) l :
  (forall x, p x = true -> q x = true) -> forallb p l = true -> forallb q l = true.
Proof. rewrite !forallb_forall. auto. Qed.

Lemma forallb_not_existsb {A} (p : A -> bool) l :
  forallb (fun x => negb (p x)) l = true -> existsb p l = false.
Proof.
  induction l as [|x t IH]; cbn [forallb existsb]; [auto|].
  intros [E1 E2]%andb_true_iff. apply negb_true_iff in E1. now rewrite E1, IH.
Qed.

Lemma forallb_Forall {A} (p : A -> bool) l : forallb p l = true <-> Forall (fun x => p x = true) l.
Proof. rewrite forallb_forall, Forall_forall. reflexivity. Qed.

Lemma existsb_filter_nil {A} (p : A -> bool) l : existsb p l = false <-> filter p l = [].
Proof.
  induction l as [|x t IH]; cbn [existsb filter]; [tauto|].
  destruct (p x); cbn [orb]; [split; discriminate|exact IH].
Qed.

Lemma filter_filter {A} (p q : A -> bool) l : filter p (filter q l) = filter (fun x => q x && p x) l.
Proof.
  induction l as [|x t IH]; cbn [filter]; [reflexivity|].
  destruct (q x); cbn [filter andb]; [destruct (p x)|]; congruence.
Qed.

Lemma fold_left_inv {A B} (P : A -> Prop) (f : A -> B -> A) l :
  (forall a b, In b l -> P a -> P (f a b)) -> forall a, P a -> P (fold_left f l a).
Proof.
  induction l as [|b l IH]; cbn [fold_left]; intros Hf a Ha; [exact Ha|].
  apply IH; [intros a' b' Hb'; apply Hf; now right|apply Hf; [now left|exact Ha]].
Qed.

Lemma length_pos {A} (x : list A) : x <> [] -> (0 < List.length x)%nat.
Proof. destruct x; [congruence|]. intros _. apply le_n_S, le_0_n. Qed.

Lemma len_app (d x : bytes) : len (d ++ x) = (len d + len x)%N.
Proof. unfold len. rewrite app_length. apply Nat2N.inj_add. Qed.

Lemma len_0 (x : bytes) : len x = 0%N -> x = [].
Proof. destruct x; [reflexivity|discriminate]. Qed.

Lemma firstn_len_app (d x : bytes) t : firstn (N.to_nat (len d + t)) (d ++ x) = d ++ firstn (N.to_nat t) x.
Proof. unfold len. rewrite N2Nat.inj_add, Nat2N.id. apply firstn_app_2. Qed.

Lemma skipn_len_app (d x : bytes) t : skipn (N.to_nat (len d + t)) (d ++ x) = skipn (N.to_nat t) x.
Proof.
  unfold len. rewrite N2Nat.inj_add, Nat2N.id. induction d as [|a d IH]; [reflexivity|exact IH].
Qed.

Lemma firstn_len (d x : bytes) : firstn (N.to_nat (len d)) (d ++ x) = d.
Proof. rewrite <- (N.add_0_r (len d)), firstn_len_app. apply app_nil_r. Qed.

Lemma skipn_len (d x : bytes) : skipn (N.to_nat (len d)) (d ++ x) = x.
Proof. rewrite <- (N.add_0_r (len d)), skipn_len_app. reflexivity. Qed.
