(* Http/ServeFacts.v — one iteration of serve_loop as a non-recursive function `serve_step`
   (serve_loop_S), what it does in each case of read_head / framing / kind / version, and the
   handler's action `handle` as the reads of the action, those of an upgrade and the drop of the
   request (handle_eq). Everything else about serve_loop goes through these. *)
From TH Require Import Base.Bytes Http.Response Http.Request Http.Body Http.Serve.

(* the reader the request gets, and the stream after new_request *)
Definition built_of (kind : body_kind) (rest : bytes) (eof : bool) (al : allocs)
  : option (breader * stream * allocs) + conn_end :=
  match kind with
  | KUpgrade => inl (Some (BUpgrade, mkS rest eof, al))
  | KEmpty => inl (Some (BEmpty, mkS rest eof, al))
  | KLimited n => inl (Some (BLimited n, mkS rest eof, al))
  | KChunked => inl (Some (BChunked None false, mkS rest eof, al))
  | KBuffered n =>
      if (n <=? len rest)%N then
        inl (Some (BBuffered (firstn (N.to_nat n) rest), mkS (skipn (N.to_nat n) rest) eof, n :: al))
      else if eof then inr CClosed else inr COpen
  end.

(* 100 Continue at the first access to the body *)
Definition w100_of (date : bytes) (act : action) (expects : bool) (ver : version) (hs : list header)
  : bytes * bool :=
  match a_reads act with
  | [] => ([], true)
  | _ => if expects then render date (empty_response 100) ver hs true None else ([], true)
  end.

Definition reads_of (c : cfg) (act : action) (rd : breader) (st1 : stream) (al1 : allocs)
  : list bytes * read_end * breader * stream * allocs :=
  do_reads c (a_reads act) rd st1 al1 [] EndCount.

Definition finish_of (c : cfg) (date : bytes) (fin : finish) (m : bytes) (ver : version)
    (hs : list header) (got : list bytes) (e : read_end) (rd2 : breader) (st2 : stream) (al2 : allocs)
  : bytes * bool * breader * stream * allocs * list bytes * read_end :=
  match fin with
  | FRespond code body declared =>
      let '(b, mo) := render date (new_response code [] body (if declared then Some (len body) else None))
                        ver hs (is_head m) None in
      (b, mo, rd2, st2, al2, got, e)
  | FDrop =>
      let '(b, mo) := render date (empty_response 500) ver hs (is_head m) None in
      (b, mo, rd2, st2, al2, got, e)
  | FWriter data => (data, true, rd2, st2, al2, got, e)
  | FUpgrade proto =>
      let '(b, mo) := render date (empty_response 101) ver hs false (Some proto) in
      let '(got', e', rd', st', al') := do_reads c [(ALL, 4096%nat)] rd2 st2 al2 got EndCount in
      (b, mo, rd', st', al', got', e')
  end.

Definition fin_wire (date : bytes) (fin : finish) (m : bytes) (ver : version) (hs : list header)
  : bytes * bool :=
  match fin with
  | FRespond code body declared =>
      render date (new_response code [] body (if declared then Some (len body) else None))
             ver hs (is_head m) None
  | FDrop => render date (empty_response 500) ver hs (is_head m) None
  | FWriter data => (data, true)
  | FUpgrade proto => render date (empty_response 101) ver hs false (Some proto)
  end.

(* an upgrade reads the connection to its end, 4096 bytes at a time (the handler of the harness,
   harness/src/cv.rs, finisher "U") *)
Definition finish_reads (fin : finish) : list (N * nat) :=
  match fin with FUpgrade _ => [(ALL, 4096%nat)] | _ => [] end.

(* do_reads returns the end it is given only when there is nothing to read, so the loop of an
   upgrade may be started from the end of the action's own reads *)
Lemma finish_of_reads c date fin m ver hs got e rd2 st2 al2 :
  finish_of c date fin m ver hs got e rd2 st2 al2 =
  let '(w, mo) := fin_wire date fin m ver hs in
  let '(got', e', rd', st', al') := do_reads c (finish_reads fin) rd2 st2 al2 got e in
  (w, mo, rd', st', al', got', e').
Proof.
  destruct fin as [code body declared| |data|proto]; cbn [finish_of fin_wire finish_reads].
  (* Only that the list of reads is not empty matters. 4096%nat is 4096 successors and slows every
     step on a goal that shows it, so it is generalized first. *)
  4: generalize (ALL, 4096%nat); intros [k n].
  all: try destruct (render _ _ _ _ _ _); reflexivity.
Qed.

Definition resp505 : response :=
  build (from_string (s "This server only supports HTTP versions 1.0 and 1.1")) [WithStatus 505].

Inductive step_result :=
| SDone (o : outcome)
| SCont (script' : list action) (st : stream) (wire : bytes) (reqs : list delivered)
        (al : allocs) (ok : bool).

Record handled := mkHd {
  h_w100 : bytes; h_m100 : bool;     (* the interim response *)
  h_wfin : bytes; h_mfin : bool;     (* the final answer *)
  h_al3 : allocs;                    (* allocations before the request is dropped *)
  h_got : list bytes; h_end : read_end;
  h_st4 : stream; h_al4 : allocs }.  (* after the request has been dropped *)

Definition handle (c : cfg) (date : bytes) (act : action) (m : bytes) (ver : version)
    (hs : list header) (expects : bool) (rd : breader) (st1 : stream) (al1 : allocs) : handled :=
  let '(w100, m100) := w100_of date act expects ver hs in
  let '(got, e, rd2, st2, al2) := reads_of c act rd st1 al1 in
  let '(wfin, mfin, rd3, st3, al3, got3, e3) :=
    finish_of c date (a_finish act) m ver hs got e rd2 st2 al2 in
  let '(st4, al4) := body_drop c rd3 st3 al3 in
  mkHd w100 m100 wfin mfin al3 got3 e3 st4 al4.

Definition act_of (script : list action) (dflt : action) : action :=
  match script with a :: _ => a | [] => dflt end.
Definition script_tl (script : list action) : list action :=
  match script with _ :: t => t | [] => [] end.

Definition deliver_step (c : cfg) (date : bytes) (script : list action) (dflt : action)
    (wire : bytes) (reqs : list delivered) (ok : bool)
    (m url : bytes) (ver : version) (hs : list header) (bl : option N) (expects : bool)
    (rd : breader) (st1 : stream) (al1 : allocs) : step_result :=
  if ver_gt_11 ver then
    if fix_d5 c then
      let '(b, mo) := render date resp505 (1, 1)%N [] false None in
      let '(st2, al2) := body_drop c rd st1 al1 in
      SCont script st2 (wire ++ b) reqs al2 (ok && mo)
    else SDone (mkO (frev reqs) wire CHang al1 ok)
  else
    match handle c date (act_of script dflt) m ver hs expects rd st1 al1 with
    | mkHd w100 m100 wfin mfin al3 got3 e3 st4 al4 =>
        let d := mkD m url ver hs bl (pieces_bytes got3) e3 in
        let wire' := wire ++ w100 ++ wfin in
        let ok' := ok && m100 && mfin in
        match e3 with
        | EndBlock => SDone (mkO (frev (d :: reqs)) (wire ++ w100) CHang al3 ok')
        | _ => if last_request ver hs then SDone (mkO (frev (d :: reqs)) wire' CClosed al4 ok')
               else SCont (script_tl script) st4 wire' (d :: reqs) al4 ok'
        end
    end.

Definition serve_step (c : cfg) (date : bytes) (script : list action) (dflt : action)
    (st : stream) (wire : bytes) (reqs : list delivered) (al : allocs) (ok : bool) : step_result :=
  match read_head c (sbytes st) with
  | HeadEof => SDone (mkO (frev reqs) wire (if seof st then CClosed else COpen) al ok)
  | HeadNonAscii => SDone (mkO (frev reqs) wire CClosed al ok)
  | HeadBadLine =>
      let '(b, m) := render date (empty_response 400) (1, 1)%N [] false None in
      SDone (mkO (frev reqs) (wire ++ b) CClosed al (ok && m))
  | HeadBadHeader ver =>
      let '(b, m) := render date (empty_response 400) ver [] false None in
      SDone (mkO (frev reqs) (wire ++ b) CClosed al (ok && m))
  | HeadOk m url ver hs rest =>
      match framing c hs with
      | FrExpectationFailed =>
          let '(b, mo) := render date (empty_response 417) ver [] true None in
          SDone (mkO (frev reqs) (wire ++ b) CClosed al (ok && mo))
      | FrBadContentLength =>
          let '(b, mo) := render date (empty_response 400) ver [] false None in
          SDone (mkO (frev reqs) (wire ++ b) CClosed al (ok && mo))
      | FrOk kind bl expects =>
          match built_of kind rest (seof st) al with
          | inr e => SDone (mkO (frev reqs) wire e
                              (match kind with KBuffered n => n :: al | _ => al end) ok)
          | inl None => SDone (mkO (frev reqs) wire CHang al ok)
          | inl (Some (rd, st1, al1)) =>
              deliver_step c date script dflt wire reqs ok m url ver hs bl expects rd st1 al1
          end
      end
  end.

Definition run_step (k : list action -> stream -> bytes -> list delivered -> allocs -> bool -> outcome)
                    (r : step_result) : outcome :=
  match r with
  | SDone o => o
  | SCont script' st' wire' reqs' al' ok' => k script' st' wire' reqs' al' ok'
  end.

Lemma serve_loop_0 c date script dflt st wire reqs al ok :
  serve_loop c date 0 script dflt st wire reqs al ok = mkO (frev reqs) wire CHang al ok.
Proof. reflexivity. Qed.

(* serve_loop tests for an action without reads before it calls do_reads *)
Lemma do_reads_match c rs rd st al :
  match rs with
  | [] => ([], EndCount, rd, st, al)
  | r :: t => do_reads c (r :: t) rd st al [] EndCount
  end = do_reads c rs rd st al [] EndCount.
Proof. destruct rs; reflexivity. Qed.

Lemma serve_loop_S c date f script dflt st wire reqs al ok :
  serve_loop c date (S f) script dflt st wire reqs al ok =
  run_step (fun script' st' wire' reqs' al' ok' =>
              serve_loop c date f script' dflt st' wire' reqs' al' ok')
           (serve_step c date script dflt st wire reqs al ok).
Proof.
  cbn [serve_loop].
  unfold serve_step, built_of, deliver_step, resp505, handle, w100_of, reads_of, finish_of, act_of, script_tl.
  (* After the unfolding both sides bind the same terms by the same lets and differ only in where
     run_step stands. The size of the read buffer plays no role (generalized as in finish_of_reads). *)
  generalize 4096%nat; intros buf.
  destruct (read_head c (sbytes st)) as [m url ver hs rest| | | |ver]; cbn [run_step]; try reflexivity.
  2: destruct (render _ _ _ _ _ _); reflexivity.
  destruct (framing c hs) as [kind bl expects| |]; cbn [run_step].
  2,3: destruct (render _ _ _ _ _ _); reflexivity.
  destruct (match kind with KEmpty => _ | _ => _ end) as [[[[rd st1] al1]|]|e]; try reflexivity.
  destruct (ver_gt_11 ver).
  - destruct (fix_d5 c); [|reflexivity].
    destruct (render _ _ _ _ _ _), (body_drop c rd st1 al1). reflexivity.
  - rewrite do_reads_match.
    destruct (match a_reads _ with [] => _ | _ :: _ => _ end) as [w100 m100].
    destruct (do_reads c _ rd st1 al1 [] EndCount) as [[[[got e] rd2] st2] al2].
    destruct (match a_finish _ with FDrop => _ | _ => _ end) as [[[[[[wfin mfin] rd3] st3] al3] got3] e3].
    destruct (body_drop c rd3 st3 al3) as [st4 al4].
    destruct e3; try reflexivity; destruct (last_request ver hs); reflexivity.
Qed.

Lemma serve_loop_done c date f script dflt st wire reqs al ok o :
  serve_step c date script dflt st wire reqs al ok = SDone o ->
  serve_loop c date (S f) script dflt st wire reqs al ok = o.
Proof. intros E. now rewrite serve_loop_S, E. Qed.

Section Cases.
Variables (c : cfg) (date : bytes) (script : list action) (dflt : action) (st : stream)
          (wire : bytes) (reqs : list delivered) (al : allocs) (ok : bool).
Local Notation step := (serve_step c date script dflt st wire reqs al ok).

Lemma step_head_eof : read_head c (sbytes st) = HeadEof ->
  step = SDone (mkO (frev reqs) wire (if seof st then CClosed else COpen) al ok).
Proof. unfold serve_step. intros ->. reflexivity. Qed.

Lemma step_head_nonascii : read_head c (sbytes st) = HeadNonAscii ->
  step = SDone (mkO (frev reqs) wire CClosed al ok).
Proof. unfold serve_step. intros ->. reflexivity. Qed.

Lemma step_head_badline : read_head c (sbytes st) = HeadBadLine ->
  step = SDone (mkO (frev reqs)
                    (wire ++ fst (render date (empty_response 400) (1, 1)%N [] false None)) CClosed al
                    (ok && snd (render date (empty_response 400) (1, 1)%N [] false None))).
Proof. unfold serve_step. intros ->. destruct (render _ _ _ _ _ _). reflexivity. Qed.

Lemma step_head_badheader ver : read_head c (sbytes st) = HeadBadHeader ver ->
  step = SDone (mkO (frev reqs)
                    (wire ++ fst (render date (empty_response 400) ver [] false None)) CClosed al
                    (ok && snd (render date (empty_response 400) ver [] false None))).
Proof. unfold serve_step. intros ->. destruct (render _ _ _ _ _ _). reflexivity. Qed.

Section HeadOk.
Variables (m url : bytes) (ver : version) (hs : list header) (rest : bytes).
Hypothesis Hh : read_head c (sbytes st) = HeadOk m url ver hs rest.

Lemma step_expectation_failed : framing c hs = FrExpectationFailed ->
  step = SDone (mkO (frev reqs)
                    (wire ++ fst (render date (empty_response 417) ver [] true None)) CClosed al
                    (ok && snd (render date (empty_response 417) ver [] true None))).
Proof. unfold serve_step. rewrite Hh. intros ->. destruct (render _ _ _ _ _ _). reflexivity. Qed.

Lemma step_bad_content_length : framing c hs = FrBadContentLength ->
  step = SDone (mkO (frev reqs)
                    (wire ++ fst (render date (empty_response 400) ver [] false None)) CClosed al
                    (ok && snd (render date (empty_response 400) ver [] false None))).
Proof. unfold serve_step. rewrite Hh. intros ->. destruct (render _ _ _ _ _ _). reflexivity. Qed.

Lemma step_framed kind bl expects : framing c hs = FrOk kind bl expects ->
  step = match built_of kind rest (seof st) al with
         | inr e => SDone (mkO (frev reqs) wire e
                             (match kind with KBuffered n => n :: al | _ => al end) ok)
         | inl None => SDone (mkO (frev reqs) wire CHang al ok)
         | inl (Some (rd, st1, al1)) =>
             deliver_step c date script dflt wire reqs ok m url ver hs bl expects rd st1 al1
         end.
Proof. unfold serve_step. rewrite Hh. intros ->. reflexivity. Qed.

Lemma step_delivered kind bl expects rd st1 al1 : framing c hs = FrOk kind bl expects ->
  built_of kind rest (seof st) al = inl (Some (rd, st1, al1)) ->
  step = deliver_step c date script dflt wire reqs ok m url ver hs bl expects rd st1 al1.
Proof. intros Hf Hb. rewrite (step_framed _ _ _ Hf), Hb. reflexivity. Qed.
End HeadOk.
End Cases.

Lemma built_of_not_buffered kind rest eof al : (forall n, kind <> KBuffered n) ->
  exists rd, built_of kind rest eof al = inl (Some (rd, mkS rest eof, al)) /\
    rd = match kind with KUpgrade => BUpgrade | KEmpty => BEmpty | KLimited n => BLimited n
                    | KChunked => BChunked None false | KBuffered _ => BEmpty end.
Proof.
  intros H. destruct kind as [| |n| |]; cbn [built_of]; eauto. destruct (H n eq_refl).
Qed.

Lemma built_of_buffered n rest eof al : (n <= len rest)%N ->
  built_of (KBuffered n) rest eof al =
  inl (Some (BBuffered (firstn (N.to_nat n) rest), mkS (skipn (N.to_nat n) rest) eof, n :: al)).
Proof. intros H. cbn [built_of]. now rewrite (proj2 (N.leb_le n (len rest)) H). Qed.

Lemma built_of_incomplete n rest eof al : (len rest < n)%N ->
  built_of (KBuffered n) rest eof al = inr (if eof then CClosed else COpen).
Proof. intros H. cbn [built_of]. rewrite (proj2 (N.leb_gt n (len rest)) H). now destruct eof. Qed.

Section Deliver.
Variables (c : cfg) (date : bytes) (script : list action) (dflt : action)
          (wire : bytes) (reqs : list delivered) (ok : bool)
          (m url : bytes) (ver : version) (hs : list header) (bl : option N) (expects : bool)
          (rd : breader) (st1 : stream) (al1 : allocs).
Local Notation dstep := (deliver_step c date script dflt wire reqs ok m url ver hs bl expects rd st1 al1).
Local Notation h := (handle c date (act_of script dflt) m ver hs expects rd st1 al1).
Local Notation d := (mkD m url ver hs bl (pieces_bytes (h_got h)) (h_end h)).

Lemma deliver_505 : ver_gt_11 ver = true -> fix_d5 c = true ->
  dstep = SCont script (fst (body_drop c rd st1 al1))
                (wire ++ fst (render date resp505 (1, 1)%N [] false None)) reqs
                (snd (body_drop c rd st1 al1))
                (ok && snd (render date resp505 (1, 1)%N [] false None)).
Proof.
  intros Hv H5. unfold deliver_step. rewrite Hv, H5.
  destruct (render _ _ _ _ _ _). destruct (body_drop c rd st1 al1). reflexivity.
Qed.

Lemma deliver_served : ver_gt_11 ver = false ->
  dstep =
  if match h_end h with EndBlock => true | _ => false end
  then SDone (mkO (frev (d :: reqs)) (wire ++ h_w100 h) CHang (h_al3 h) (ok && h_m100 h && h_mfin h))
  else if last_request ver hs
  then SDone (mkO (frev (d :: reqs)) (wire ++ h_w100 h ++ h_wfin h) CClosed (h_al4 h)
                  (ok && h_m100 h && h_mfin h))
  else SCont (script_tl script) (h_st4 h) (wire ++ h_w100 h ++ h_wfin h) (d :: reqs) (h_al4 h)
             (ok && h_m100 h && h_mfin h).
Proof.
  intros Hv. unfold deliver_step. rewrite Hv.
  destruct h as [w100 m100 wfin mfin al3 got3 e3 st4 al4]. cbn [h_end]. destruct e3; reflexivity.
Qed.

End Deliver.

Section Handle.
Variables (c : cfg) (date : bytes) (act : action) (m : bytes) (ver : version) (hs : list header)
          (expects : bool) (rd : breader) (st1 : stream) (al1 : allocs).
Local Notation h := (handle c date act m ver hs expects rd st1 al1).

Lemma handle_eq got e rd2 st2 al2 got3 e3 rd3 st3 al3 :
  do_reads c (a_reads act) rd st1 al1 [] EndCount = (got, e, rd2, st2, al2) ->
  do_reads c (finish_reads (a_finish act)) rd2 st2 al2 got e = (got3, e3, rd3, st3, al3) ->
  h = mkHd (fst (w100_of date act expects ver hs)) (snd (w100_of date act expects ver hs))
           (fst (fin_wire date (a_finish act) m ver hs)) (snd (fin_wire date (a_finish act) m ver hs))
           al3 got3 e3 (fst (body_drop c rd3 st3 al3)) (snd (body_drop c rd3 st3 al3)).
Proof.
  intros Er Eu. unfold handle, reads_of. rewrite Er. cbv iota. rewrite finish_of_reads, Eu.
  destruct (w100_of _ _ _ _ _), (fin_wire _ _ _ _ _), (body_drop c rd3 st3 al3). reflexivity.
Qed.

Lemma handle_sent :
  h_w100 h = fst (w100_of date act expects ver hs) /\ h_m100 h = snd (w100_of date act expects ver hs) /\
  h_wfin h = fst (fin_wire date (a_finish act) m ver hs) /\
  h_mfin h = snd (fin_wire date (a_finish act) m ver hs).
Proof.
  destruct (do_reads c (a_reads act) rd st1 al1 [] EndCount) as [[[[got e] rd2] st2] al2] eqn:Er.
  destruct (do_reads c (finish_reads (a_finish act)) rd2 st2 al2 got e)
    as [[[[got3 e3] rd3] st3] al3] eqn:Eu.
  rewrite (handle_eq _ _ _ _ _ _ _ _ _ _ Er Eu). repeat split; reflexivity.
Qed.

End Handle.

Lemma handle_reads c date act m ver hs expects rd st1 al1 :
  let h := handle c date act m ver hs expects rd st1 al1 in
  exists got e rd2 st2 al2 rd3 st3,
    do_reads c (a_reads act) rd st1 al1 [] EndCount = (got, e, rd2, st2, al2) /\
    do_reads c (finish_reads (a_finish act)) rd2 st2 al2 got e = (h_got h, h_end h, rd3, st3, h_al3 h) /\
    body_drop c rd3 st3 (h_al3 h) = (h_st4 h, h_al4 h).
Proof.
  destruct (do_reads c (a_reads act) rd st1 al1 [] EndCount) as [[[[got e] rd2] st2] al2] eqn:Er.
  destruct (do_reads c (finish_reads (a_finish act)) rd2 st2 al2 got e)
    as [[[[got3 e3] rd3] st3] al3] eqn:Eu.
  cbv zeta. rewrite (handle_eq _ date _ m ver hs expects _ _ _ _ _ _ _ _ _ _ _ _ _ Er Eu).
  cbn [h_got h_end h_al3 h_st4 h_al4]. exists got, e, rd2, st2, al2, rd3, st3.
  split; [reflexivity|split; [exact Eu|apply surjective_pairing]].
Qed.
