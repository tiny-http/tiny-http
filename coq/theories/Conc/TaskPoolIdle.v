(* Conc/TaskPoolIdle.v — idle workers of the task-pool model Conc/TaskPool.v are reclaimed (C20):
   (1) DL: every waiting worker's deadline is at most IDLE after the present (it was `now + IDLE` when
       the worker went idle and time only moves forward);
   (2) a timed waiter that is not notified can time out from its deadline on, then resumes with
       an empty queue, decides to return and exits (Timeout; Resume; Exit);
   (3) threads_return: from a state with nothing queued and nothing running, a schedule of
       Start/Lock steps of the still moving workers (`settle`), then Resume steps, ONE `Tick IDLE`, and
       Timeout/Resume/Exit steps (`retire`) leaves at most MIN threads (none after the pool is dropped):
       each is blocked without deadline.
   After PoolDrop the model's Exit carries the guard "fewer than BIG - MIN workers" (`TaskPool.step`,
   case Exit); the hypothesis `exit_room` below is that assumption stated on the state. *)
From Coq Require Import List Arith Bool Lia.
Import ListNotations.
From TH Require Import Conc.TaskPool Conc.TaskPoolFacts.

#[local] Arguments Spawned {task}. #[local] Arguments AtLock {task}. #[local] Arguments Blocked {task}.
#[local] Arguments Woken {task}. #[local] Arguments Running {task}. #[local] Arguments Exiting {task}.
#[local] Arguments Exited {task}. #[local] Arguments Start {task}. #[local] Arguments Lock {task}.
#[local] Arguments Timeout {task}. #[local] Arguments Resume {task}. #[local] Arguments Exit {task}.
#[local] Arguments PoolDrop {task}. #[local] Arguments Tick {task}. #[local] Arguments todo {task}.
#[local] Arguments waiting {task}. #[local] Arguments active {task}. #[local] Arguments dropped {task}.
#[local] Arguments now {task}. #[local] Arguments ws {task}. #[local] Arguments started {task}.
#[local] Arguments is_blocked {task}. #[local] Arguments is_untimed {task}. #[local] Arguments is_woken {task}.
#[local] Arguments is_live {task}. #[local] Arguments wake {task}. #[local] Arguments notify {task}.

Lemma upd_upd {A} (l : list A) i x y : upd (upd l i x) i y = upd l i y.
Proof. revert i. induction l as [|a l IH]; intros [|i]; cbn; auto. now rewrite IH. Qed.

Section TPI.
Variable task : Type.
Variable MIN IDLE BIG : nat.
Hypothesis BIG_big : MIN < BIG.

Local Notation wstate := (TaskPool.wstate task).
Local Notation st := (TaskPool.st task).
Local Notation label := (TaskPool.label task).
Local Notation step := (TaskPool.step task MIN IDLE BIG).
Local Notation run := (TaskPool.run task MIN IDLE BIG).
Local Notation pop_or_wait := (TaskPool.pop_or_wait task MIN IDLE).
Local Notation Inv := (TaskPool.Inv task MIN).
Local Notation count := (TaskPool.count task).
Local Notation init := (TaskPool.init task MIN).
Local Notation cnt_upd := (TaskPoolFacts.cnt_upd task MIN BIG BIG_big).
Local Notation is_holding := (TaskPoolFacts.is_holding task).
Local Notation wmoves := (TaskPoolFacts.wmoves task IDLE).
Local Notation sched := (TaskPoolFacts.sched task MIN IDLE BIG).
Local Notation sweep := (TaskPoolFacts.sweep task MIN IDLE BIG).
Local Notation sched_trans := (TaskPoolFacts.sched_trans task MIN IDLE BIG).

Definition is_timed (r : wstate) : bool := match r with Blocked true _ => true | _ => false end.
Definition is_running (r : wstate) : bool := match r with Running _ => true | _ => false end.
Definition is_exiting (r : wstate) : bool := match r with Exiting => true | _ => false end.
Definition is_fresh (r : wstate) : bool := match r with Spawned None => true | _ => false end.
Definition is_atlock (r : wstate) : bool := match r with AtLock => true | _ => false end.
Definition is_alive (r : wstate) : bool := match r with Exited => false | _ => true end.

Lemma blocked_split l : count is_blocked l = count is_untimed l + count is_timed l.
Proof.
  induction l as [|a l IH]; [reflexivity|]. rewrite !count_cons, IH. destruct a as [| |[]| | | |]; cbn; lia.
Qed.

Definition dl_ok (t : nat) (r : wstate) : Prop := match r with Blocked _ d => d <= t | _ => True end.
Definition DL (s : st) : Prop := Forall (dl_ok (now s + IDLE)) (ws s).

Lemma DL_wake t l : Forall (dl_ok t) l -> Forall (dl_ok t) (map wake l).
Proof. induction 1 as [|a l Ha Hl IH]; cbn; constructor; auto. destruct a; cbn; auto. Qed.
Lemma DL_notify t l w l' : notify l w = Some l' -> Forall (dl_ok t) l -> Forall (dl_ok t) l'.
Proof.
  intros H F. destruct (notify_cases _ _ _ _ H) as [[_ ->]|(i & r & _ & _ & ->)]; [exact F|].
  apply Forall_upd; [exact F|]. destruct r; cbn; auto.
Qed.
Lemma wmoves_DL s s' w old x : wmoves s s' w old x -> DL s -> DL s'.
Proof.
  intros (_ & Hw & _ & Hn & _ & Hx & _) F. unfold DL. rewrite Hw, Hn. apply Forall_upd; [exact F|].
  destruct x; cbn; auto. now rewrite (Hx _ _ eq_refl).
Qed.
Lemma step_DL fixed s l s' : DL s -> step fixed s l = Some s' -> DL s'.
Proof.
  intros F H. pose proof (worker_step task MIN IDLE BIG fixed s l s' H) as W.
  destruct l; try (destruct W as (w' & old & x & M); exact (wmoves_DL _ _ _ _ _ M F)); clear W; unfold DL; cbn [TaskPool.step] in H.
  - destruct (dropped s); [discriminate|].
    destruct (if fixed then waiting s <=? length (todo s) else waiting s =? 0).
    + destruct w; inversion H; subst. cbn [now ws set_ws]. apply Forall_app; split; auto. repeat constructor.
    + destruct (notify (ws s) w) as [l'|] eqn:En; inversion H; subst. cbn [now ws]. eapply DL_notify; eauto.
  - inversion H; subst. cbn [now ws]. now apply DL_wake.
  - inversion H; subst. cbn [now ws]. eapply Forall_impl; [|exact F]. intros []; cbn; auto; lia.
Qed.
Lemma run_DL fixed ls : forall s s', DL s -> run fixed s ls = Some s' -> DL s'.
Proof. exact (run_preserves task MIN IDLE BIG DL fixed (step_DL fixed) ls). Qed.
Lemma init_DL : DL init.
Proof. unfold DL; cbn [TaskPool.init ws now]. generalize MIN as n. induction n; cbn; constructor; cbn; auto. Qed.

Corollary reachable_DL fixed ls s : run fixed init ls = Some s -> DL s.
Proof. exact (run_DL fixed ls init s init_DL). Qed.

Theorem deadline_bound fixed ls s w b d : run fixed init ls = Some s ->
  nth_error (ws s) w = Some (Blocked b d) -> d <= now s + IDLE.
Proof. intros H Hn. exact (nth_Forall _ _ _ _ (reachable_DL _ _ _ H) Hn). Qed.

Theorem untimed_never_times_out fixed s w d : nth_error (ws s) w = Some (Blocked false d) ->
  step fixed s (Timeout w) = None.
Proof. intros Hn. cbn. now rewrite Hn. Qed.

Definition moved (s : st) (w : nat) (x : wstate) (wt act : nat) : st :=
  {| todo := todo s; waiting := wt; active := act; dropped := dropped s; now := now s;
     ws := upd (ws s) w x; started := started s |}.

Lemma pop_or_wait_empty s w wt : todo s = [] ->
  pop_or_wait s w wt = moved s w (Blocked (MIN <? active s) (now s + IDLE)) (S wt) (active s).
Proof. intros Ht. unfold TaskPool.pop_or_wait, moved. now rewrite Ht. Qed.
Lemma start_fresh fixed s w : nth_error (ws s) w = Some (Spawned None) ->
  step fixed s (Start w) = Some (moved s w AtLock (waiting s) (S (active s))).
Proof. intros Hn. cbn. now rewrite Hn. Qed.
Lemma lock_empty fixed s w : nth_error (ws s) w = Some AtLock -> todo s = [] ->
  step fixed s (Lock w) = Some (moved s w (Blocked (MIN <? active s) (now s + IDLE)) (S (waiting s)) (active s)).
Proof. intros Hn Ht. cbn [TaskPool.step]. now rewrite Hn, pop_or_wait_empty. Qed.
Lemma resume_notified_empty fixed s w : nth_error (ws s) w = Some (Woken true) -> todo s = [] ->
  step fixed s (Resume w) = Some (moved s w (Blocked (MIN <? active s) (now s + IDLE)) (S (waiting s - 1)) (active s)).
Proof. intros Hn Ht. cbn [TaskPool.step]. rewrite Hn. cbn [negb andb]. now rewrite pop_or_wait_empty. Qed.
Lemma resume_timedout fixed s w : nth_error (ws s) w = Some (Woken false) -> todo s = [] ->
  step fixed s (Resume w) = Some (moved s w Exiting (waiting s - 1) (active s)).
Proof. intros Hn Ht. cbn. unfold moved. now rewrite Hn, Ht. Qed.
Lemma timeout_due fixed s w d : nth_error (ws s) w = Some (Blocked true d) -> d <= now s ->
  step fixed s (Timeout w) = Some (moved s w (Woken false) (waiting s) (active s)).
Proof. intros Hn Hd. apply Nat.leb_le in Hd. cbn. now rewrite Hn, Hd. Qed.
Lemma exit_allowed fixed s w : nth_error (ws s) w = Some Exiting -> (dropped s = false \/ S MIN < active s) ->
  step fixed s (Exit w) = Some (moved s w Exited (waiting s) (active s - 1)).
Proof.
  intros Hn Hg. assert (E : dropped s && (active s <=? S MIN) = false).
  { destruct Hg as [->|Hg]; [reflexivity|]. apply Nat.leb_gt in Hg. rewrite Hg. apply andb_false_r. }
  cbn. now rewrite Hn, E.
Qed.

Theorem timed_waiter_exits fixed s w d :
  nth_error (ws s) w = Some (Blocked true d) -> d <= now s -> todo s = [] ->
  (dropped s = false \/ S MIN < active s) ->
  exists s1 s2 s3,
    step fixed s (Timeout w) = Some s1 /\ nth_error (ws s1) w = Some (Woken false) /\
    step fixed s1 (Resume w) = Some s2 /\ nth_error (ws s2) w = Some Exiting /\
    step fixed s2 (Exit w) = Some s3 /\ nth_error (ws s3) w = Some Exited /\
    ws s3 = upd (ws s) w Exited /\ active s3 = active s - 1 /\ waiting s3 = waiting s - 1 /\
    todo s3 = [] /\ now s3 = now s /\ dropped s3 = dropped s.
Proof.
  intros Hn Hd Ht Hg.
  set (s1 := moved s w (Woken false) (waiting s) (active s)).
  set (s2 := moved s1 w Exiting (waiting s1 - 1) (active s1)).
  set (s3 := moved s2 w Exited (waiting s2) (active s2 - 1)).
  assert (Hn1 : nth_error (ws s1) w = Some (Woken false)) by (eapply nth_upd_some; eauto).
  assert (Hn2 : nth_error (ws s2) w = Some Exiting) by (eapply nth_upd_some; eauto).
  exists s1, s2, s3. csplit; auto.
  - now apply timeout_due with (d := d).
  - now apply resume_timedout.
  - now apply exit_allowed.
  - eapply nth_upd_some; eauto.
  - cbn. now rewrite !upd_upd.
Qed.

Definition is_quiet_step (l : label) : bool :=
  match l with Start _ | Lock _ | Resume _ | Timeout _ | Exit _ | Tick _ => true | _ => false end.
Definition only_quiet_steps (ls : list label) : Prop := Forall (fun l => is_quiet_step l = true) ls.
(* when every worker is already idle only time, timeouts and the exits are needed *)
Definition is_timer_step (l : label) : bool :=
  match l with Resume _ | Timeout _ | Exit _ | Tick _ => true | _ => false end.
Definition only_timer_steps (ls : list label) : Prop := Forall (fun l => is_timer_step l = true) ls.

(* the model's Exit guard after PoolDrop: the poisoned counter is still above MIN + the live threads *)
Definition exit_room (s : st) : Prop := dropped s = true -> count is_live (ws s) + MIN < active s.

Lemma exit_room_before_drop s : dropped s = false -> exit_room s.
Proof. unfold exit_room. congruence. Qed.

(* exit_room is the model's assumption made once, at the drop (Drop runs once): fewer than BIG - MIN
   threads are alive then; it is preserved by every later step *)
Lemma exit_room_at_drop s s' : dropped s = false -> count is_live (ws s) + MIN < BIG ->
  step true s PoolDrop = Some s' -> exit_room s'.
Proof. intros Hd Hc H. inversion H; subst. unfold exit_room; cbn [ws active]. rewrite (count_map_wake_live task). auto. Qed.
Lemma wmoves_exit_room s s' w old x : wmoves s s' w old x -> dropped s = true -> exit_room s -> exit_room s'.
Proof.
  intros (Hn & Hw & _ & _ & Ha & _) Hd Hg _. specialize (Hg Hd). rewrite Hw, Ha.
  pose proof (cnt_upd is_live _ _ _ x Hn) as C. destruct (is_live old), (is_live x); cbn [inc dec negb andb]; lia.
Qed.
Lemma exit_room_step s l s' : l <> PoolDrop -> dropped s = true -> exit_room s -> step true s l = Some s' -> exit_room s'.
Proof.
  intros HI Hd Hg H. pose proof (worker_step task MIN IDLE BIG true s l s' H) as W.
  destruct l; try (destruct W as (w' & old & x & M); exact (wmoves_exit_room _ _ _ _ _ M Hd Hg)); cbn [TaskPool.step] in H.
  - rewrite Hd in H. discriminate.
  - congruence.
  - inversion H; subst. intros _. cbn [ws active]. exact (Hg Hd).
Qed.

(* phase predicate: invariant, empty queue, clock t, drop flag b, every worker in the allowed set A *)
Definition Q (A : wstate -> Prop) (t : nat) (b : bool) (s : st) : Prop :=
  Inv s /\ todo s = [] /\ exit_room s /\ now s = t /\ dropped s = b /\ Forall A (ws s).

Definition without (A : wstate -> Prop) (f : wstate -> bool) (r : wstate) : Prop := A r /\ f r = false.

Lemma Q_without A (f : wstate -> bool) t b s : Q A t b s -> count f (ws s) = 0 -> Q (without A f) t b s.
Proof.
  intros (HI & Ht & Hg & Hn & Hd & HF) Hz. unfold Q; csplit; auto.
  exact (Forall_and HF (count_zero_Forall _ _ _ Hz)).
Qed.

(* every worker of the class f can leave it by its step L w, into an allowed state and touching nothing else *)
Definition leaves (A : wstate -> Prop) (t : nat) (b : bool) (f : wstate -> bool) (L : nat -> label) : Prop :=
  forall s w r, Q A t b s -> nth_error (ws s) w = Some r -> f r = true ->
  exists x wt act, step true s (L w) = Some (moved s w x wt act) /\ f x = false /\ A x.

(* one phase: the steps L w empty the class f; Inv and exit_room are kept by any such step *)
Lemma phase G A t b (f : wstate -> bool) (L : nat -> label) :
  (forall w, G (L w) = true) -> (forall w, L w <> PoolDrop) -> leaves A t b f L ->
  forall s, Q A t b s -> exists s', sched G s s' /\ Q (without A f) t b s'.
Proof.
  intros HG HL Hstep s HQ. destruct (sweep G f L (Q A t b) HG) with (s := s) as (s' & S & Q' & Z); auto.
  - clear s HQ. intros s w r HQ Hn Hr. destruct (Hstep s w r HQ Hn Hr) as (x & wt & act & E & Hx & HA).
    destruct HQ as (HI & Ht & Hg & Hn0 & Hd & HF). eexists. split; [exact E|]. split.
    + unfold Q. cbn [moved todo now dropped ws]. csplit; auto.
      * eapply (step_inv task MIN IDLE BIG BIG_big); eauto.
      * destruct (dropped s) eqn:Ed; [eapply exit_room_step; eauto|now apply exit_room_before_drop].
      * apply Forall_upd; auto.
    + eapply (cnt_upd_lt task MIN BIG BIG_big); eauto.
  - exists s'. split; [exact S|]. now apply Q_without.
Qed.

(* allowed worker states: A0 when the pool has gone idle at clock t, B4 after the `Tick IDLE` of `retire` *)
Definition A0 (t : nat) (r : wstate) : Prop :=
  match r with Running _ | Spawned (Some _) => False | Blocked _ d => d <= t + IDLE | _ => True end.
Definition A2 (t : nat) : wstate -> Prop := without (without (A0 t) is_fresh) is_atlock.
(* not used: `retire` goes from A2 to B4 by its `Tick IDLE` *)
Definition A3 (t : nat) (r : wstate) : Prop :=
  match r with Blocked _ d => d <= t + IDLE | Exiting | Exited => True | _ => False end.
Definition B4 (t : nat) (r : wstate) : Prop :=
  match r with Blocked true d => d <= t | Blocked false _ | Woken false | Exiting | Exited => True | _ => False end.
Definition B7 (t : nat) : wstate -> Prop := without (without (without (B4 t) is_timed) is_woken) is_exiting.

(* fresh threads register (Spawned None -> AtLock) *)
Lemma fresh_start t b : leaves (A0 t) t b is_fresh Start.
Proof.
  intros s w r HQ Hn Hr. destruct r as [[tk|]| | | | | |]; try discriminate.
  do 3 eexists. split; [now apply start_fresh|]. now split.
Qed.
(* workers at the lock or woken find the queue empty and wait (or, woken by a timeout, decide to return) *)
Lemma atlock_waits t b : leaves (without (A0 t) is_fresh) t b is_atlock Lock.
Proof.
  intros s w r (_ & Ht & _ & Hnow & _) Hn Hr. destruct r as [[tk|]| | | | | |]; try discriminate.
  do 3 eexists. split; [now apply lock_empty|]. repeat split. cbn. lia.
Qed.
Lemma woken_waits t b : leaves (A2 t) t b is_woken Resume.
Proof.
  intros s w r (_ & Ht & _ & Hnow & _) Hn Hr. destruct r as [[tk|]| | |[]| | |]; try discriminate; do 3 eexists.
  - split; [now apply resume_notified_empty|]. repeat split. cbn. lia.
  - split; [now apply resume_timedout|]. repeat split.
Qed.
(* after the idle period every timed waiter times out *)
Lemma timed_times_out t b : leaves (B4 t) t b is_timed Timeout.
Proof.
  intros s w r (_ & _ & _ & Hnow & _ & HF) Hn Hr. pose proof (nth_Forall _ _ _ _ HF Hn) as Hd.
  destruct r as [[tk|]| |[] d| | | |]; try discriminate. cbn in Hd.
  do 3 eexists. split; [apply timeout_due with (d := d); [exact Hn|lia]|]. now split.
Qed.
(* finds the queue empty and decides to return (B4 has no notified worker) *)
Lemma timedout_returns t b : leaves (without (B4 t) is_timed) t b is_woken Resume.
Proof.
  intros s w r (_ & Ht & _ & _ & _ & HF) Hn Hr. destruct (nth_Forall _ _ _ _ HF Hn) as [Hb _].
  destruct r as [[tk|]| | |[]| | |]; try discriminate; try contradiction.
  do 3 eexists. split; [now apply resume_timedout|]. repeat split.
Qed.
(* and exits; the guard of Exit holds by exit_room *)
Lemma exiting_exits t b : leaves (without (without (B4 t) is_timed) is_woken) t b is_exiting Exit.
Proof.
  intros s w r (_ & _ & Hg & _) Hn Hr. destruct r as [[tk|]| | | | | |]; try discriminate.
  assert (Hroom : dropped s = false \/ S MIN < active s).
  { unfold exit_room in Hg. destruct (dropped s); [right|now left].
    pose proof (live_pos task MIN BIG BIG_big _ _ _ Hn eq_refl). specialize (Hg eq_refl). lia. }
  do 3 eexists. split; [now apply exit_allowed|]. repeat split.
Qed.

Lemma timer_quiet l : is_timer_step l = true -> is_quiet_step l = true.
Proof. destruct l; auto. Qed.

(* the still moving workers settle: each registers, finds nothing to do and waits *)
Lemma settle t b s : Q (A0 t) t b s -> exists s', sched is_quiet_step s s' /\ Q (A2 t) t b s'.
Proof.
  intros Q0.
  destruct (phase is_quiet_step _ _ _ _ Start (fun _ => eq_refl) ltac:(discriminate) (fresh_start t b) s Q0) as (s1 & S1 & Q1).
  destruct (phase is_quiet_step _ _ _ _ Lock (fun _ => eq_refl) ltac:(discriminate) (atlock_waits t b) s1 Q1) as (s2 & S2 & Q2).
  exists s2. split; [exact (sched_trans _ _ _ _ S1 S2)|exact Q2].
Qed.

(* ONE `Tick IDLE` and every deadline has passed *)
Lemma idle_period t b s : Q (without (A2 t) is_woken) t b s ->
  exists s', step true s (Tick IDLE) = Some s' /\ Q (B4 (t + IDLE)) (t + IDLE) b s'.
Proof.
  intros (HI & Ht & Hg & Hn & Hd & HF). eexists. split; [reflexivity|]. unfold Q; csplit; auto; [cbn [now]; lia|].
  cbn [ws]. eapply Forall_impl; [|exact HF]. intros r [[[Ha Hf] Hl] Hw]. destruct r as [[tk|]| |[] d|[]| | |]; cbn in *; try contradiction; try discriminate; auto.
Qed.

(* the idle workers retire: notified ones wait again, the idle period passes, the timed waiters time out, return and exit *)
Lemma retire t b s : Q (A2 t) t b s -> exists s', sched is_timer_step s s' /\ Q (B7 (t + IDLE)) (t + IDLE) b s'.
Proof.
  intros Q2.
  destruct (phase is_timer_step _ _ _ _ Resume (fun _ => eq_refl) ltac:(discriminate) (woken_waits t b) s Q2) as (s3 & S3 & Q3).
  destruct (idle_period t b s3 Q3) as (s4 & E4 & Q4).
  destruct (phase is_timer_step _ _ _ _ Timeout (fun _ => eq_refl) ltac:(discriminate) (timed_times_out _ b) s4 Q4) as (s5 & S5 & Q5).
  destruct (phase is_timer_step _ _ _ _ Resume (fun _ => eq_refl) ltac:(discriminate) (timedout_returns _ b) s5 Q5) as (s6 & S6 & Q6).
  destruct (phase is_timer_step _ _ _ _ Exit (fun _ => eq_refl) ltac:(discriminate) (exiting_exits _ b) s6 Q6) as (s7 & S7 & Q7).
  exists s7. split; [|exact Q7].
  apply (sched_trans _ _ _ _ S3). apply (sched_cons task MIN IDLE BIG _ _ (Tick IDLE) s4); [reflexivity|exact E4|].
  exact (sched_trans _ _ _ _ S5 (sched_trans _ _ _ _ S6 S7)).
Qed.

(* what is left: every thread has exited or waits without deadline, at most MIN of them by J4, none after the drop by J3' *)
Lemma retired t b s : Q (B7 t) t b s ->
  now s = t /\ count is_alive (ws s) <= MIN /\ (b = true -> count is_alive (ws s) = 0) /\
  Forall (fun r => r = Exited \/ exists d, r = Blocked false d) (ws s).
Proof.
  intros ((_ & _ & _ & J3' & J4) & _ & _ & Hn & Hd & HF).
  assert (HF' : Forall (fun r => r = Exited \/ exists d, r = Blocked false d) (ws s)).
  { eapply Forall_impl; [|exact HF]. intros r [[[Hb Ht] Hw] He]. destruct r as [[tk|]| |[] d|[]| | |]; cbn in *; try contradiction; try discriminate; eauto. }
  assert (E : count is_alive (ws s) = count is_untimed (ws s)).
  { clear -HF'. induction HF' as [|a l Ha Hl IH]; [reflexivity|]. rewrite !count_cons, IH. now destruct Ha as [->|[d ->]]. }
  rewrite E. csplit; auto. intros ->. now apply J3'.
Qed.

Lemma idle_Q s : Inv s -> DL s -> todo s = [] -> count is_running (ws s) = 0 -> count is_holding (ws s) = 0 -> exit_room s ->
  Q (A0 (now s)) (now s) (dropped s) s.
Proof.
  intros HI HD Ht Hrun Hhold Hg. unfold Q; csplit; auto.
  apply count_zero_Forall in Hrun. apply count_zero_Forall in Hhold.
  eapply Forall_impl; [|exact (Forall_and HD (Forall_and Hrun Hhold))].
  intros [[tk|]| | | | | |] (Hd & Hr & Hh); cbn in *; auto; discriminate.
Qed.

Theorem threads_return s :
  Inv s -> DL s -> todo s = [] -> count is_running (ws s) = 0 -> count is_holding (ws s) = 0 -> exit_room s ->
  exists s', sched is_quiet_step s s' /\ now s' = now s + IDLE /\
    count is_alive (ws s') <= MIN /\ (dropped s = true -> count is_alive (ws s') = 0) /\
    Forall (fun r => r = Exited \/ exists d, r = Blocked false d) (ws s').
Proof.
  intros HI HD Ht Hrun Hhold Hg.
  destruct (settle _ _ s (idle_Q s HI HD Ht Hrun Hhold Hg)) as (s2 & S2 & Q2).
  destruct (retire _ _ s2 Q2) as (s' & S' & Q').
  exists s'. split; [|exact (retired _ _ s' Q')].
  eapply sched_trans; [exact S2|]. eapply sched_weaken; [exact timer_quiet|exact S'].
Qed.
Theorem threads_return_idle s :
  Inv s -> DL s -> todo s = [] -> count is_running (ws s) = 0 -> count is_holding (ws s) = 0 -> exit_room s ->
  count is_fresh (ws s) = 0 -> count is_atlock (ws s) = 0 ->
  exists s', sched is_timer_step s s' /\ now s' = now s + IDLE /\
    count is_alive (ws s') <= MIN /\ (dropped s = true -> count is_alive (ws s') = 0) /\
    Forall (fun r => r = Exited \/ exists d, r = Blocked false d) (ws s').
Proof.
  intros HI HD Ht Hrun Hhold Hg Zf Za.
  pose proof (Q_without _ _ _ _ _ (Q_without _ _ _ _ _ (idle_Q s HI HD Ht Hrun Hhold Hg) Zf) Za) as Q2.
  destruct (retire _ _ s Q2) as (s' & S' & Q'). exists s'. split; [exact S'|exact (retired _ _ s' Q')].
Qed.
End TPI.
