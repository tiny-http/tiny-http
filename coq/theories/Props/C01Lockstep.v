(* Props/C01Lockstep.v — what makes the lock-step runs of the REAL sequential-writer chain (src/util/sequential.rs) against
   the model Conc/SeqWriter.v meaningful. The harness runs the real chain under a controlled scheduler, replays the
   recorded labels through `step true`, checks that every operation the real code is still blocked in is DISABLED in
   the model, and expects well-ordered scripts to run to completion.
   Statements, each derived in a few lines from Conc/SeqWriterFacts.v, SeqWriterStepFacts.v, SeqWriterPrograms.v,
   SeqWriterProgress.v and SeqWriterCheck.v, where the proofs are.
   All theorems are over ALL reachable states (`run true init ls = Some s`, any `ls`), any number of writers, any
   byte type. `step … = None` means the calling thread blocks.
   The second half (`c06_well_ordered_*`) is C06's liveness at chain level: systems of well-ordered per-thread
   programs never get stuck. *)
From Coq Require Import List Arith Bool Lia.
Import ListNotations.
From TH Require Import Conc.SeqWriter Conc.SeqWriterFacts Conc.SeqWriterStepFacts Conc.SeqWriterPrograms
  Conc.SeqWriterProgress Conc.SeqWriterCheck.

Local Arguments dropped {byte}.
Local Arguments sent {byte}.
Local Arguments ws {byte}.
Local Arguments stream {byte}.
Local Arguments New {byte}.
Local Arguments Write {byte}.
Local Arguments Flush {byte}.
Local Arguments DropW {byte}.
Local Arguments step {byte}.
Local Arguments run {byte}.
Local Arguments init {byte}.
Local Arguments label_index {byte}.
Local Arguments writes_of {byte}.
Local Arguments uses {byte}.
Local Arguments well_ordered {byte}.
Local Arguments wo_b {byte}.
Local Arguments disjoint {byte}.
Local Arguments bounded {byte}.
Local Arguments all_owned {byte}.
Local Arguments system_ok {byte}.
Local Arguments cst {byte}.
Local Arguments cps {byte}.
Local Arguments exec_at {byte}.
Local Arguments exec {byte}.
Local Arguments trace {byte}.
Local Arguments finished {byte}.
Local Arguments stuck {byte}.
Local Arguments stuck_b {byte}.

(* an operation of writer i is enabled iff writer i exists, is not dropped, and every earlier writer is dropped *)
Theorem c01_write_enabled_iff :
  forall (byte : Type) (ls : list (label byte)) (s : st byte) (i : nat) (d : list byte),
    run true init ls = Some s ->
    (step true s (Write i d) <> None <->
     exists w, nth_error (ws s) i = Some w /\ dropped w = false /\
       (forall k wk, k < i -> nth_error (ws s) k = Some wk -> dropped wk = true)).
Proof.
  intros byte ls s i d H. apply (enabled_iff byte s (Write i d) i); [|reflexivity].
  exact (run_init_inv byte ls s H).
Qed.
Print Assumptions c01_write_enabled_iff.

Theorem c01_flush_enabled_iff :
  forall (byte : Type) (ls : list (label byte)) (s : st byte) (i : nat),
    run true init ls = Some s ->
    (step true s (Flush i) <> None <->
     exists w, nth_error (ws s) i = Some w /\ dropped w = false /\
       (forall k wk, k < i -> nth_error (ws s) k = Some wk -> dropped wk = true)).
Proof.
  intros byte ls s i H. apply (enabled_iff byte s (Flush i) i); [|reflexivity].
  exact (run_init_inv byte ls s H).
Qed.
Print Assumptions c01_flush_enabled_iff.

Theorem c01_drop_enabled_iff :
  forall (byte : Type) (ls : list (label byte)) (s : st byte) (i : nat),
    run true init ls = Some s ->
    (step true s (DropW i) <> None <->
     exists w, nth_error (ws s) i = Some w /\ dropped w = false /\
       (forall k wk, k < i -> nth_error (ws s) k = Some wk -> dropped wk = true)).
Proof.
  intros byte ls s i H. apply (enabled_iff byte s (DropW i) i); [|reflexivity].
  exact (run_init_inv byte ls s H).
Qed.
Print Assumptions c01_drop_enabled_iff.

Theorem c01_new_always_enabled :
  forall (byte : Type) (s : st byte), exists s', step true s New = Some s'.
Proof. intros byte s. eexists. reflexivity. Qed.
Print Assumptions c01_new_always_enabled.

(* a disabled operation of an existing, undropped writer always has a blocker: the least undropped writer, which is
   earlier and whose own operations are all enabled *)
Theorem c01_blocked_has_blocker :
  forall (byte : Type) (s : st byte) (op : label byte) (i : nat) (w : wr byte),
    label_index op = Some i -> nth_error (ws s) i = Some w -> dropped w = false -> step true s op = None ->
    exists k wk, k < i /\ nth_error (ws s) k = Some wk /\ dropped wk = false /\
      (forall j wj, j < k -> nth_error (ws s) j = Some wj -> dropped wj = true) /\
      (forall d, step true s (Write k d) <> None) /\ step true s (Flush k) <> None /\ step true s (DropW k) <> None.
Proof.
  intros byte s op i w Hl Hi Hd Hn.
  destruct (blocked_has_blocker byte s op i w Hl Hi Hd Hn) as (k & Hk & Hr). pose proof Hr as (wk & Hnk & Hdk & Hb).
  exists k, wk. repeat split; auto; intros; now apply (ready_step_some byte s _ k).
Qed.
Print Assumptions c01_blocked_has_blocker.

(* while an earlier writer k is undropped the operation is disabled (a conclusion, not a hypothesis), and stays so under
   every step other than DropW k *)
Theorem c01_blocked_stable_write :
  forall (byte : Type) (ls : list (label byte)) (s : st byte) (i : nat) (d : list byte) (k : nat) (wk : wr byte),
    run true init ls = Some s -> k < i -> nth_error (ws s) k = Some wk -> dropped wk = false ->
    step true s (Write i d) = None /\
    forall (l : label byte) (s' : st byte), step true s l = Some s' -> l <> DropW k ->
      (exists wk', nth_error (ws s') k = Some wk' /\ dropped wk' = false) /\ step true s' (Write i d) = None.
Proof.
  intros byte ls s i d k wk H. apply (blocked_stable byte s (Write i d) i k wk); [exact (run_init_inv byte ls s H)|reflexivity].
Qed.
Print Assumptions c01_blocked_stable_write.

Theorem c01_blocked_stable_flush :
  forall (byte : Type) (ls : list (label byte)) (s : st byte) (i : nat) (k : nat) (wk : wr byte),
    run true init ls = Some s -> k < i -> nth_error (ws s) k = Some wk -> dropped wk = false ->
    step true s (Flush i) = None /\
    forall (l : label byte) (s' : st byte), step true s l = Some s' -> l <> DropW k ->
      (exists wk', nth_error (ws s') k = Some wk' /\ dropped wk' = false) /\ step true s' (Flush i) = None.
Proof.
  intros byte ls s i k wk H. apply (blocked_stable byte s (Flush i) i k wk); [exact (run_init_inv byte ls s H)|reflexivity].
Qed.
Print Assumptions c01_blocked_stable_flush.

Theorem c01_blocked_stable_drop :
  forall (byte : Type) (ls : list (label byte)) (s : st byte) (i : nat) (k : nat) (wk : wr byte),
    run true init ls = Some s -> k < i -> nth_error (ws s) k = Some wk -> dropped wk = false ->
    step true s (DropW i) = None /\
    forall (l : label byte) (s' : st byte), step true s l = Some s' -> l <> DropW k ->
      (exists wk', nth_error (ws s') k = Some wk' /\ dropped wk' = false) /\ step true s' (DropW i) = None.
Proof.
  intros byte ls s i k wk H. apply (blocked_stable byte s (DropW i) i k wk); [exact (run_init_inv byte ls s H)|reflexivity].
Qed.
Print Assumptions c01_blocked_stable_drop.

(* the converse reading: the only step that can unblock an operation blocked by k is DropW k *)
Theorem c01_unblocked_only_by_drop :
  forall (byte : Type) (ls : list (label byte)) (s s' : st byte) (op l : label byte) (i k : nat) (wk : wr byte),
    run true init ls = Some s -> label_index op = Some i ->
    k < i -> nth_error (ws s) k = Some wk -> dropped wk = false ->
    step true s l = Some s' -> step true s' op <> None -> l = DropW k.
Proof.
  intros byte ls s s' op l i k wk H. apply unblocked_only_by_drop. exact (run_init_inv byte ls s H).
Qed.
Print Assumptions c01_unblocked_only_by_drop.

Theorem c01_write_effect :
  forall (byte : Type) (s s' : st byte) (i : nat) (d : list byte),
    step true s (Write i d) = Some s' ->
    exists w, nth_error (ws s) i = Some w /\ dropped w = false /\
      ws s' = upd (ws s) i {| SeqWriter.turn := true; SeqWriter.dropped := false; SeqWriter.sent := sent w ++ d |} /\
      stream s' = stream s ++ d /\
      length (ws s') = length (ws s) /\
      nth_error (ws s') i = Some {| SeqWriter.turn := true; SeqWriter.dropped := false; SeqWriter.sent := sent w ++ d |} /\
      (forall j, j <> i -> nth_error (ws s') j = nth_error (ws s) j).
Proof.
  intros byte s s' i d H. destruct (step_true_inversion byte s (Write i d) i s' eq_refl H) as (w & Hi & Hd & _ & ->).
  cbn. rewrite Nat.eqb_refl. exists w. repeat split; auto; now apply (upd_effect byte _ i w).
Qed.
Print Assumptions c01_write_effect.

Theorem c01_flush_effect :
  forall (byte : Type) (s s' : st byte) (i : nat),
    step true s (Flush i) = Some s' ->
    exists w, nth_error (ws s) i = Some w /\ dropped w = false /\
      ws s' = upd (ws s) i {| SeqWriter.turn := true; SeqWriter.dropped := false; SeqWriter.sent := sent w |} /\
      stream s' = stream s /\
      length (ws s') = length (ws s) /\
      nth_error (ws s') i = Some {| SeqWriter.turn := true; SeqWriter.dropped := false; SeqWriter.sent := sent w |} /\
      (forall j, j <> i -> nth_error (ws s') j = nth_error (ws s) j).
Proof.
  intros byte s s' i H. destruct (step_true_inversion byte s (Flush i) i s' eq_refl H) as (w & Hi & Hd & _ & ->).
  cbn. rewrite !app_nil_r. exists w. repeat split; auto; now apply (upd_effect byte _ i w).
Qed.
Print Assumptions c01_flush_effect.

Theorem c01_drop_effect :
  forall (byte : Type) (s s' : st byte) (i : nat),
    step true s (DropW i) = Some s' ->
    exists w, nth_error (ws s) i = Some w /\ dropped w = false /\
      ws s' = upd (ws s) i {| SeqWriter.turn := true; SeqWriter.dropped := true; SeqWriter.sent := sent w |} /\
      stream s' = stream s /\
      length (ws s') = length (ws s) /\
      nth_error (ws s') i = Some {| SeqWriter.turn := true; SeqWriter.dropped := true; SeqWriter.sent := sent w |} /\
      (forall j, j <> i -> nth_error (ws s') j = nth_error (ws s) j).
Proof.
  intros byte s s' i H. destruct (step_true_inversion byte s (DropW i) i s' eq_refl H) as (w & Hi & Hd & _ & ->).
  cbn. rewrite Nat.eqb_refl, !app_nil_r. exists w. repeat split; auto; now apply (upd_effect byte _ i w).
Qed.
Print Assumptions c01_drop_effect.

Theorem c01_new_effect :
  forall (byte : Type) (s s' : st byte),
    step true s New = Some s' ->
    ws s' = ws s ++ [fresh byte] /\ stream s' = stream s /\ length (ws s') = S (length (ws s)) /\
    nth_error (ws s') (length (ws s)) = Some (fresh byte) /\
    (forall j, j < length (ws s) -> nth_error (ws s') j = nth_error (ws s) j).
Proof.
  intros byte s s' H. inversion H. cbn. repeat split.
  - rewrite app_length. cbn. lia.
  - rewrite nth_error_app2, Nat.sub_diag by lia. reflexivity.
  - intros j Hj. now apply nth_error_app1.
Qed.
Print Assumptions c01_new_effect.

(* A program (`prog`) is the list of labels of ONE thread. `well_ordered p` (Conc/SeqWriterPrograms.v): p has no `New`;
   if p = a ++ l :: b and l concerns writer j then every writer j' < j that p uses has its `DropW j'` in a; no label
   of p concerns a writer after that writer's `DropW`; p contains `DropW j` for every writer j it uses.
   `system_ok n progs`: every program well-ordered, different programs use disjoint writers, all used writers are < n,
   every writer < n is used by some program. A configuration (`config`) is a chain state `cst` plus the remaining
   suffixes `cps`; `exec_at c t` lets thread t execute its head label if the model enables it; `exec c sched` makes the
   moves of the threads listed in `sched`. *)

(* `well_ordered` is decidable: the checker used in the Examples below *)
Theorem c06_well_ordered_checker :
  forall (byte : Type) (p : prog byte), wo_b p = true <-> well_ordered p.
Proof. intros byte p. split; [apply wo_b_sound|apply wo_b_complete]. Qed.
Print Assumptions c06_well_ordered_checker.

(* moves are steps of the chain model: the labels executed along a schedule form a run *)
Theorem c06_moves_are_a_run :
  forall (byte : Type) (c c' : config byte) (sched : list nat),
    exec c sched = Some c' ->
    run true (cst c) (trace c sched) = Some (cst c') /\ length (trace c sched) = length sched.
Proof. intros byte c c' sched. apply exec_run. Qed.
Print Assumptions c06_moves_are_a_run.

(* after ANY sequence of moves either every program is finished or some program's head label is enabled *)
Theorem c06_well_ordered_never_stuck :
  forall (byte : Type) (n : nat) (progs : list (prog byte)) (s0 : st byte) (sched : list nat) (c : config byte),
    system_ok n progs -> run true init (repeat New n) = Some s0 ->
    exec {| cst := s0; cps := progs |} sched = Some c ->
    finished c \/ exists t c', exec_at c t = Some c'.
Proof.
  intros byte n progs s0 sched c Hok H0 H. destruct (cinv_start byte n progs s0 Hok H0) as (HI & _).
  exact (cinv_not_stuck byte n c (cinv_exec byte n sched _ c HI H)).
Qed.
Print Assumptions c06_well_ordered_never_stuck.

(* the same when the `New`s are a further program (thread 0) interleaved with the others, starting from `init` *)
Theorem c06_well_ordered_never_stuck_with_creation :
  forall (byte : Type) (n : nat) (progs : list (prog byte)) (sched : list nat) (c : config byte),
    system_ok n progs ->
    exec {| cst := init; cps := repeat New n :: progs |} sched = Some c ->
    finished c \/ exists t c', exec_at c t = Some c'.
Proof.
  intros byte n progs sched c Hok H. destruct (cinv_start_creation byte n progs Hok) as (HI & _).
  exact (cinv_not_stuck byte n c (cinv_exec byte n sched _ c HI H)).
Qed.
Print Assumptions c06_well_ordered_never_stuck_with_creation.

(* every move consumes one label: no sequence of moves is longer than the total number of labels (any programs) *)
Theorem c06_moves_bounded :
  forall (byte : Type) (c c' : config byte) (sched : list nat),
    exec c sched = Some c' -> length sched + length (concat (cps c')) = length (concat (cps c)).
Proof. intros byte c c' sched H. symmetry. exact (exec_size byte sched c c' H). Qed.
Print Assumptions c06_moves_bounded.

(* every sequence of moves can be extended to one that finishes all programs *)
Theorem c06_well_ordered_can_finish :
  forall (byte : Type) (n : nat) (progs : list (prog byte)) (s0 : st byte) (sched : list nat) (c : config byte),
    system_ok n progs -> run true init (repeat New n) = Some s0 ->
    exec {| cst := s0; cps := progs |} sched = Some c ->
    exists sched' c', exec c sched' = Some c' /\ finished c'.
Proof.
  intros byte n progs s0 sched c Hok H0 H. destruct (cinv_start byte n progs s0 Hok H0) as (HI & _).
  exact (cinv_can_finish byte n _ c eq_refl (cinv_exec byte n sched _ c HI H)).
Qed.
Print Assumptions c06_well_ordered_can_finish.

Theorem c06_well_ordered_can_finish_with_creation :
  forall (byte : Type) (n : nat) (progs : list (prog byte)) (sched : list nat) (c : config byte),
    system_ok n progs ->
    exec {| cst := init; cps := repeat New n :: progs |} sched = Some c ->
    exists sched' c', exec c sched' = Some c' /\ finished c'.
Proof.
  intros byte n progs sched c Hok H. destruct (cinv_start_creation byte n progs Hok) as (HI & _).
  exact (cinv_can_finish byte n _ c eq_refl (cinv_exec byte n sched _ c HI H)).
Qed.
Print Assumptions c06_well_ordered_can_finish_with_creation.

(* every maximal sequence of moves ends with all programs finished, after exactly (total number of labels) moves; then
   all n writers are dropped and the stream is, in writer order, what was written through each writer — which is what
   the program owning that writer writes through it *)
Theorem c06_well_ordered_terminates :
  forall (byte : Type) (n : nat) (progs : list (prog byte)) (s0 : st byte) (sched : list nat) (c : config byte),
    system_ok n progs -> run true init (repeat New n) = Some s0 ->
    exec {| cst := s0; cps := progs |} sched = Some c ->
    (forall t, exec_at c t = None) ->
    finished c /\
    length sched = length (concat progs) /\
    length (ws (cst c)) = n /\
    (forall j w, nth_error (ws (cst c)) j = Some w -> dropped w = true) /\
    stream (cst c) = concat (map (fun j => writes_of j (concat progs)) (seq 0 n)) /\
    (forall t p j, nth_error progs t = Some p -> uses p j -> writes_of j (concat progs) = writes_of j p).
Proof.
  intros byte n progs s0 sched c Hok H0 H Hmax. destruct (cinv_start byte n progs s0 Hok H0) as (HI & HW).
  destruct (cinv_maximal byte n _ _ sched c HI HW H Hmax) as (Hf & Hlen & Hn & Hd & Hs).
  repeat split; auto. intros t p j. apply writes_of_owner. exact (so_disjoint _ _ _ Hok).
Qed.
Print Assumptions c06_well_ordered_terminates.

Theorem c06_well_ordered_terminates_with_creation :
  forall (byte : Type) (n : nat) (progs : list (prog byte)) (sched : list nat) (c : config byte),
    system_ok n progs ->
    exec {| cst := init; cps := repeat New n :: progs |} sched = Some c ->
    (forall t, exec_at c t = None) ->
    finished c /\
    length sched = n + length (concat progs) /\
    length (ws (cst c)) = n /\
    (forall j w, nth_error (ws (cst c)) j = Some w -> dropped w = true) /\
    stream (cst c) = concat (map (fun j => writes_of j (concat progs)) (seq 0 n)) /\
    (forall t p j, nth_error progs t = Some p -> uses p j -> writes_of j (concat progs) = writes_of j p).
Proof.
  intros byte n progs sched c Hok H Hmax. destruct (cinv_start_creation byte n progs Hok) as (HI & HW).
  destruct (cinv_maximal byte n _ _ sched c HI HW H Hmax) as (Hf & Hlen & Hn & Hd & Hs).
  repeat split; auto.
  - rewrite Hlen. unfold size. cbn [cps concat]. now rewrite app_length, repeat_length.
  - intros t p j. apply writes_of_owner. exact (so_disjoint _ _ _ Hok).
Qed.
Print Assumptions c06_well_ordered_terminates_with_creation.

(* a writer nobody owns blocks everything behind it: `all_owned` cannot be dropped from `system_ok` *)
Definition U1 : list (prog nat) := [[Write 1 [7]; DropW 1]].

Example c06_well_ordered_needs_all_owned :
  (forall p, In p U1 -> well_ordered p) /\ disjoint U1 /\ bounded 2 U1 /\ ~ all_owned 2 U1 /\
  exists s0, run true init (repeat New 2) = Some s0 /\ stuck {| cst := s0; cps := U1 |}.
Proof.
  split; [|split; [|split; [|split]]].
  - intros p [<-|[]]. apply wo_b_sound. vm_compute. reflexivity.
  - intros [|t1] [|t2] p1 p2 j H1 H2 _ _; cbn in H1, H2; auto; [destruct t2|destruct t1|destruct t1]; discriminate.
  - intros p j [<-|[]] (l & [<-|[<-|[]]] & E); injection E as <-; lia.
  - intros H. destruct (H 0 ltac:(lia)) as (p & [<-|[]] & l & [<-|[<-|[]]] & E); discriminate.
  - eexists. split; [reflexivity|]. apply stuck_b_spec. vm_compute. reflexivity.
Qed.
Print Assumptions c06_well_ordered_needs_all_owned.

(* a well-ordered system: 3 programs over 5 writers *)
Definition P0 : prog nat := [Write 0 [1]; Flush 0; DropW 0; Write 3 [4]; DropW 3].
Definition P1 : prog nat := [Write 1 [2]; DropW 1; DropW 4].
Definition P2 : prog nat := [Write 2 [3]; Write 2 [33]; Flush 2; DropW 2].
Definition S5 : list (prog nat) := [P0; P1; P2].

Example c06_example_system_ok : system_ok 5 S5.
Proof. apply system_ok_b_sound. vm_compute. reflexivity. Qed.
Print Assumptions c06_example_system_ok.

(* at the start only thread 0 can move; threads 1 and 2 are blocked by writer 0 *)
Example c06_example_start :
  match run true init (repeat New 5) with
  | Some s0 => map (fun t => match exec_at {| cst := s0; cps := S5 |} t with Some _ => true | None => false end) [0; 1; 2]
               = [true; false; false]
  | None => False
  end.
Proof. vm_compute. reflexivity. Qed.

(* a complete schedule: 12 moves, all writers dropped, the stream in writer order whatever the thread order *)
Example c06_example_complete :
  match run true init (repeat New 5) with
  | Some s0 =>
      match exec {| cst := s0; cps := S5 |} [0; 0; 0; 1; 1; 2; 2; 2; 2; 0; 0; 1] with
      | Some c => cps c = [[]; []; []] /\ stream (cst c) = [1; 2; 3; 33; 4] /\
                  map dropped (ws (cst c)) = [true; true; true; true; true] /\ stuck_b c = false
      | None => False
      end
  | None => False
  end.
Proof. vm_compute. repeat split. Qed.

(* with the creation interleaved: thread 0 creates, the others start as soon as their writer exists and is released *)
Example c06_example_complete_with_creation :
  match exec {| cst := init; cps := repeat New 5 :: S5 |} [0; 1; 1; 0; 1; 0; 2; 0; 2; 3; 3; 0; 3; 3; 1; 1; 2] with
  | Some c => cps c = [[]; []; []; []] /\ stream (cst c) = [1; 2; 3; 33; 4] /\
              map dropped (ws (cst c)) = [true; true; true; true; true]
  | None => False
  end.
Proof. vm_compute. repeat split. Qed.

(* a system that is NOT well-ordered and does get stuck: thread 0 touches writer 2 before dropping writer 0 *)
Definition B0 : prog nat := [Write 0 [1]; Write 2 [3]; DropW 0; DropW 2].
Definition B1 : prog nat := [Write 1 [2]; DropW 1].

Example c06_example_not_well_ordered_stuck :
  wo_b B0 = false /\ ~ well_ordered B0 /\ well_ordered B1 /\
  exists s0 c, run true init (repeat New 3) = Some s0 /\
    exec {| cst := s0; cps := [B0; B1] |} [0] = Some c /\
    stuck c /\ cps c = [[Write 2 [3]; DropW 0; DropW 2]; [Write 1 [2]; DropW 1]].
Proof.
  split; [vm_compute; reflexivity|]. split; [|split].
  - intros H. apply wo_b_complete in H. vm_compute in H. discriminate.
  - apply wo_b_sound. vm_compute. reflexivity.
  - do 2 eexists. split; [reflexivity|]. split; [reflexivity|].
    split; [apply stuck_b_spec; vm_compute; reflexivity|reflexivity].
Qed.
Print Assumptions c06_example_not_well_ordered_stuck.
