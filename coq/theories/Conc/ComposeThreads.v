(* Conc/ComposeThreads.v — the answering threads as programs, and ALL their interleavings.
   The connection thread's program is `repeat New n` (it takes one writer per segment); the thread that holds writer
   i runs `answer i ops_i` = its writes and flushes in order, then the drop. `interleaving ps ls`: ls is an arbitrary
   shuffle of the programs ps (each program's own order is kept, nothing else is constrained). Whatever the shuffle,
   writer i is written to by its own thread only, so the labels meet hypotheses (b) and (c) of Conc/ComposeFacts.v
   (`thread_interleaving_hyps`); answering in arrival order (`arrival`) is the shuffle that puts the programs one
   after the other. *)
From Coq Require Import List Arith Lia.
Import ListNotations.
From TH Require Import Conc.SeqWriter Conc.SeqWriterFacts.

Local Arguments New {byte}.
Local Arguments writes_of {byte}.
Local Arguments wdata {byte}.
Local Arguments is_new {byte}.
Local Arguments lab {byte}.
Local Arguments op_data {byte}.
Local Arguments data {byte}.
Local Arguments answer {byte}.
Local Arguments arrival {byte}.

Section Merge.
Context {A : Type}.

Inductive merge : list A -> list A -> list A -> Prop :=
| merge_nil : merge [] [] []
| merge_l x a b c : merge a b c -> merge (x :: a) b (x :: c)
| merge_r x a b c : merge a b c -> merge a (x :: b) (x :: c).

Lemma merge_sym a b c : merge a b c -> merge b a c.
Proof. induction 1; constructor; auto. Qed.

Lemma merge_nil_l b : merge [] b b.
Proof. induction b; constructor; auto. Qed.

Lemma merge_app a b : merge a b (a ++ b).
Proof. induction a as [|x a IH]; cbn; [apply merge_nil_l|now constructor]. Qed.

Lemma merge_concat_r {B} (g : A -> list B) a b c : merge a b c ->
  concat (map g a) = [] -> concat (map g c) = concat (map g b).
Proof.
  induction 1 as [|x a b c _ IH|x a b c _ IH]; cbn; intros Ha; auto.
  - apply app_eq_nil in Ha as [Hx Ha]. rewrite Hx. cbn. auto.
  - f_equal. auto.
Qed.

Lemma merge_concat_l {B} (g : A -> list B) a b c : merge a b c ->
  concat (map g b) = [] -> concat (map g c) = concat (map g a).
Proof. intros H. apply merge_concat_r. now apply merge_sym. Qed.

Lemma merge_count (f : A -> bool) a b c : merge a b c ->
  length (filter f c) = length (filter f a) + length (filter f b).
Proof.
  induction 1 as [|x a b c _ IH|x a b c _ IH]; cbn; auto; destruct (f x); cbn; lia.
Qed.

Fixpoint interleaving (ps : list (list A)) (ls : list A) : Prop :=
  match ps with
  | [] => ls = []
  | p :: r => exists lr, interleaving r lr /\ merge p lr ls
  end.

Lemma interleaving_concat ps : interleaving ps (concat ps).
Proof. induction ps as [|p r IH]; cbn; [reflexivity|]. exists (concat r). split; [exact IH|apply merge_app]. Qed.

End Merge.

Section Threads.
Variable byte : Type.
Notation label := (SeqWriter.label byte).
Notation op := (SeqWriterFacts.op byte).
Implicit Types (ls : list label).

Lemma writes_of_labs i k (ops : list op) : writes_of i (map (lab k) ops) = if k =? i then data ops else [].
Proof.
  unfold writes_of, data. induction ops as [|o ops IH]; cbn [map concat]; [now destruct (k =? i)|].
  rewrite IH. destruct o as [d|]; cbn; destruct (k =? i); reflexivity.
Qed.

Lemma writes_of_answer i k (ops : list op) : writes_of i (answer k ops) = if k =? i then data ops else [].
Proof.
  unfold answer. rewrite writes_of_app, writes_of_labs. unfold writes_of. cbn. now rewrite app_nil_r.
Qed.

Lemma news_of_answer k (ops : list op) : filter is_new (answer k ops) = [].
Proof.
  unfold answer. rewrite filter_app. cbn. rewrite app_nil_r. induction ops as [|[d|] ops IH]; cbn; auto.
Qed.

(* the programs of the threads holding writers k, k+1, ... *)
Fixpoint progs (k : nat) (opss : list (list op)) : list (list label) :=
  match opss with [] => [] | ops :: r => answer k ops :: progs (S k) r end.

Lemma concat_progs opss : forall k, concat (progs k opss) = arrival k opss.
Proof. induction opss as [|ops r IH]; intros k; cbn; [reflexivity|]. now rewrite IH. Qed.

Lemma interleaving_progs_writes opss : forall k lr i, interleaving (progs k opss) lr ->
  writes_of i lr = if k <=? i then data (nth (i - k) opss []) else [].
Proof.
  induction opss as [|ops r IH]; intros k lr i H.
  - cbn in H. subst lr. unfold writes_of. cbn. destruct (k <=? i); [|reflexivity]. now destruct (i - k).
  - cbn [progs interleaving] in H. destruct H as (lr' & Hr & Hm).
    specialize (IH (S k) lr' i Hr). unfold writes_of in *.
    destruct (Nat.eq_dec k i) as [->|Hne].
    + rewrite (merge_concat_l (wdata i) _ _ _ Hm).
      * fold (writes_of i (answer i ops)). rewrite writes_of_answer, Nat.eqb_refl, Nat.leb_refl, Nat.sub_diag. reflexivity.
      * rewrite IH. destruct (Nat.leb_spec (S i) i); [lia|reflexivity].
    + rewrite (merge_concat_r (wdata i) _ _ _ Hm).
      * rewrite IH. destruct (Nat.leb_spec (S k) i) as [H1|H1], (Nat.leb_spec k i) as [H2|H2]; try lia; auto.
        replace (i - k) with (S (i - S k)) by lia. reflexivity.
      * fold (writes_of i (answer k ops)). rewrite writes_of_answer. apply Nat.eqb_neq in Hne. now rewrite Hne.
Qed.

Lemma interleaving_progs_news opss : forall k lr, interleaving (progs k opss) lr ->
  length (filter is_new lr) = 0.
Proof.
  induction opss as [|ops r IH]; intros k lr H.
  - cbn in H. now subst lr.
  - cbn [progs interleaving] in H. destruct H as (lr' & Hr & Hm).
    rewrite (merge_count is_new _ _ _ Hm), (IH (S k) lr' Hr), news_of_answer. reflexivity.
Qed.

Lemma thread_interleaving_hyps (opss : list (list op)) ls :
  interleaving (repeat New (length opss) :: progs 0 opss) ls ->
  length (filter is_new ls) = length opss /\ forall i, writes_of i ls = nth i (map data opss) [].
Proof.
  cbn [interleaving]. intros (lr & Hr & Hm). split.
  - rewrite (merge_count is_new _ _ _ Hm), (interleaving_progs_news opss 0 lr Hr), filter_new_repeat, repeat_length. lia.
  - intros i. unfold writes_of. rewrite (merge_concat_r (wdata i) _ _ _ Hm).
    + fold (writes_of i lr). rewrite (interleaving_progs_writes opss 0 lr i Hr). cbn [Nat.leb]. rewrite Nat.sub_0_r.
      change (@nil byte) with (data (@nil op)). now rewrite map_nth.
    + exact (writes_of_news byte i (length opss)).
Qed.

Lemma writes_of_arrival (opss : list (list op)) k i :
  writes_of i (arrival k opss) = if k <=? i then data (nth (i - k) opss []) else [].
Proof. rewrite <- concat_progs. apply interleaving_progs_writes, interleaving_concat. Qed.

Lemma news_of_arrival (opss : list (list op)) k : filter is_new (arrival k opss) = [].
Proof.
  apply length_zero_iff_nil. rewrite <- concat_progs. exact (interleaving_progs_news opss k _ (interleaving_concat _)).
Qed.

Lemma arrival_is_interleaving (opss : list (list op)) :
  interleaving (repeat New (length opss) :: progs 0 opss) (repeat New (length opss) ++ arrival 0 opss).
Proof.
  cbn [interleaving]. exists (arrival 0 opss). split; [|apply merge_app].
  rewrite <- concat_progs. apply interleaving_concat.
Qed.

End Threads.
