(* Base/RadixFacts.v — print/parse round trip for decimal and hexadecimal numbers
   (Content-Length, status codes, chunk sizes). *)
From TH Require Import Base.Bytes.
From Coq Require Import Lia ZArith ZifyN.
Open Scope N_scope.

Section Radix.
Variable b : N.
Hypothesis b_ge2 : 2 <= b.
(* within the section digit_char is this variable, not the decimal Bytes.digit_char *)
Variable digit_char : N -> ascii.
Variable digit_val : ascii -> option N.
Hypothesis val_char : forall d, d < b -> digit_val (digit_char d) = Some d.

Notation print := (print_radix b digit_char).
Notation value := (value_radix b digit_val).
Notation parse := (parse_radix b digit_val).

Lemma value_app acc x t : value acc (x ++ t) = match value acc x with Some v => value v t | None => None end.
Proof. revert acc; induction x as [|c x IH]; intros acc; cbn [app value_radix]; auto. destruct (digit_val c); auto. Qed.

Lemma fuel_step f n : b <= n -> n < b ^ N.of_nat (S f) -> (0 < f)%nat /\ n / b < b ^ N.of_nat f.
Proof.
  rewrite Nat2N.inj_succ, N.pow_succ_r'. intros Hge Hn. split.
  - destruct f; [|lia]. change (N.of_nat 0) with 0 in Hn. rewrite N.pow_0_r in Hn. lia.
  - apply N.div_lt_upper_bound; lia.
Qed.

Lemma print_aux_spec : forall fuel n acc, n < b ^ N.of_nat fuel -> (0 < fuel)%nat ->
  exists ds, print_aux b digit_char fuel n acc = ds ++ acc /\ ds <> [] /\
             Forall (fun c => exists d, d < b /\ c = digit_char d) ds /\
             forall a, value a ds = Some (a * b ^ N.of_nat (List.length ds) + n).
Proof.
  induction fuel as [|f IH]; intros n acc Hn Hf; [lia|]. cbn [print_aux].
  assert (Hd : exists d, d < b /\ digit_char (n mod b) = digit_char d).
  { exists (n mod b). split; [apply N.mod_lt; lia|reflexivity]. }
  destruct (N.ltb_spec n b) as [Hlt|Hge].
  - exists [digit_char (n mod b)]. repeat split; [discriminate|auto|].
    intros a. cbn [value_radix List.length].
    rewrite N.mod_small, val_char by lia. change (N.of_nat 1) with 1. now rewrite N.pow_1_r.
  - destruct (fuel_step f n Hge Hn) as [Hf' Hn'].
    destruct (IH (n / b) (digit_char (n mod b) :: acc) Hn' Hf') as (ds & E & Hne & Hall & Hv).
    exists (ds ++ [digit_char (n mod b)]). repeat split.
    + rewrite E. now rewrite <- app_assoc.
    + destruct ds; discriminate.
    + apply Forall_app; auto.
    + intros a. rewrite value_app, Hv. cbn [value_radix]. rewrite val_char by (apply N.mod_lt; lia). f_equal.
      rewrite app_length. cbn [List.length]. rewrite Nat.add_1_r, Nat2N.inj_succ, N.pow_succ_r'.
      pose proof (N.div_mod n b ltac:(lia)). nia.
Qed.

Lemma log2_fuel n : n < b ^ N.of_nat (S (N.to_nat (N.log2 n))).
Proof.
  rewrite Nat2N.inj_succ, N2Nat.id. destruct (N.eq_dec n 0) as [->|Hn]; [change (N.succ (N.log2 0)) with 1; rewrite N.pow_1_r; lia|].
  pose proof (N.log2_spec n ltac:(lia)) as [_ Hhi].
  eapply N.lt_le_trans; [exact Hhi|]. apply N.pow_le_mono_l. lia.
Qed.

Lemma print_aux_acc : forall fuel n acc, print_aux b digit_char fuel n acc = print_aux b digit_char fuel n [] ++ acc.
Proof.
  induction fuel as [|f IH]; intros n acc; cbn [print_aux]; [reflexivity|].
  destruct (n <? b); [reflexivity|]. rewrite IH, (IH _ [_]), <- app_assoc. reflexivity.
Qed.

Lemma print_aux_fuel : forall f f' n acc, (0 < f)%nat -> (0 < f')%nat ->
  n < b ^ N.of_nat f -> n < b ^ N.of_nat f' -> print_aux b digit_char f n acc = print_aux b digit_char f' n acc.
Proof.
  induction f as [|f IH]; intros [|f'] n acc Hf Hf' Hn Hn'; try lia. cbn [print_aux].
  destruct (N.ltb_spec n b) as [Hlt|Hge]; [reflexivity|].
  destruct (fuel_step f n Hge Hn), (fuel_step f' n Hge Hn'). now apply IH.
Qed.

Lemma print_small n : n < b -> print n = [digit_char n].
Proof.
  intros H. unfold print_radix. cbn [print_aux]. rewrite (proj2 (N.ltb_lt n b) H). now rewrite N.mod_small.
Qed.

Lemma print_step n : b <= n -> print n = print (n / b) ++ [digit_char (n mod b)].
Proof.
  intros H. unfold print_radix at 1. cbn [print_aux]. rewrite (proj2 (N.ltb_ge n b) H), print_aux_acc. f_equal.
  destruct (fuel_step _ n H (log2_fuel n)). apply print_aux_fuel; auto using log2_fuel with arith.
Qed.

Lemma print_all (p : ascii -> bool) n : (forall d, d < b -> p (digit_char d) = true) ->
  print n <> [] /\ forallb p (print n) = true.
Proof.
  intros Hp. unfold print_radix. destruct (print_aux_spec _ n [] (log2_fuel n) ltac:(lia)) as (ds & E & Hne & Hall & _).
  rewrite E, app_nil_r. split; [exact Hne|]. apply forallb_forall. intros c Hc.
  rewrite Forall_forall in Hall. destruct (Hall c Hc) as (d & Hd & ->). auto.
Qed.

Theorem parse_print bound n : n < bound -> parse bound (print n) = Some n.
Proof.
  intros Hb. unfold print_radix. destruct (print_aux_spec _ n [] (log2_fuel n) ltac:(lia)) as (ds & E & Hne & _ & Hv).
  rewrite E, app_nil_r. unfold parse_radix. destruct ds as [|d ds]; [congruence|]. rewrite Hv.
  replace (0 * b ^ N.of_nat (List.length (d :: ds)) + n) with n by lia.
  destruct (N.ltb_spec n bound); [reflexivity|lia].
Qed.

Theorem parse_leading_zero bound z x : digit_val z = Some 0 -> x <> [] -> parse bound (z :: x) = parse bound x.
Proof.
  intros Hz Hs. unfold parse_radix. destruct x; [congruence|]. cbn [value_radix]. rewrite Hz.
  replace (0 * b + 0) with 0 by lia. reflexivity.
Qed.

Lemma parse_some bound x n : parse bound x = Some n <-> x <> [] /\ value 0 x = Some n /\ n < bound.
Proof.
  unfold parse_radix. destruct x as [|c t]; [split; [discriminate|intros [H _]; congruence]|].
  destruct (value 0 (c :: t)) as [v|]; [|split; [discriminate|intros (_ & H & _); discriminate]].
  destruct (N.ltb_spec v bound) as [H|H]; split.
  - intros [= <-]. repeat split; [discriminate|assumption].
  - now intros (_ & [= <-] & _).
  - discriminate.
  - intros (_ & [= <-] & Hn). destruct (proj1 (N.lt_nge _ _) Hn H).
Qed.

Theorem parse_sound bound x v : parse bound x = Some v -> v < bound /\ x <> [].
Proof. intros (H1 & _ & H3)%parse_some. auto. Qed.
End Radix.

Lemma code_ascii_of_N n : n < 256 -> code (ascii_of_N n) = n.
Proof. intros H. unfold code. apply N_ascii_embedding. exact H. Qed.

Lemma in_range lo hi n : lo <= n <= hi -> (lo <=? n) && (n <=? hi) = true.
Proof. intros [H1 H2]. now rewrite (proj2 (N.leb_le _ _) H1), (proj2 (N.leb_le _ _) H2). Qed.

Lemma is_digit_digit_char d : d < 10 -> is_digit (digit_char d) = true.
Proof. intros H. unfold is_digit, digit_char. rewrite code_ascii_of_N by lia. apply in_range. lia. Qed.

Lemma dec_val_char d : d < 10 -> dec_val (digit_char d) = Some d.
Proof.
  intros H. unfold dec_val. rewrite is_digit_digit_char by exact H.
  unfold dval, digit_char. rewrite code_ascii_of_N by lia. f_equal. lia.
Qed.

(* the characters print_hex produces (print_hex_digits) *)
Definition is_lhex (c : ascii) : bool := is_digit c || ((97 <=? code c) && (code c <=? 102)).

Lemma hex_char_letter d : 10 <= d < 16 ->
  code (hex_char d) = 87 + d /\ is_digit (hex_char d) = false /\
  (97 <=? code (hex_char d)) && (code (hex_char d) <=? 102) = true.
Proof.
  intros H. unfold hex_char, is_digit. rewrite (proj2 (N.ltb_ge d 10)), code_ascii_of_N by lia.
  repeat split; [|apply in_range; lia]. rewrite (proj2 (N.leb_gt (87 + d) 57)), andb_false_r by lia. reflexivity.
Qed.

Lemma hex_char_digit d : d < 10 -> hex_char d = digit_char d.
Proof. intros H. unfold hex_char. now rewrite (proj2 (N.ltb_lt d 10) H). Qed.

Lemma hex_val_char d : d < 16 -> hex_val (hex_char d) = Some d.
Proof.
  intros H. unfold hex_val. destruct (N.lt_ge_cases d 10) as [Hd|Hd].
  - rewrite hex_char_digit, is_digit_digit_char by exact Hd.
    unfold digit_char. rewrite code_ascii_of_N by lia. f_equal. lia.
  - destruct (hex_char_letter d (conj Hd H)) as (-> & -> & ->). f_equal. lia.
Qed.

Lemma is_lhex_hex_char d : d < 16 -> is_lhex (hex_char d) = true.
Proof.
  intros H. unfold is_lhex. destruct (N.lt_ge_cases d 10) as [Hd|Hd].
  - now rewrite hex_char_digit, is_digit_digit_char.
  - destruct (hex_char_letter d (conj Hd H)) as (_ & -> & ->). reflexivity.
Qed.

Theorem parse_dec_print n : n < USIZE_BOUND -> parse_dec (print_dec n) = Some n.
Proof. apply parse_print; [lia|exact dec_val_char]. Qed.

Lemma print_dec_small n : n < 10 -> print_dec n = [digit_char n].
Proof. apply print_small. Qed.

Lemma print_dec_step n : 10 <= n -> print_dec n = print_dec (n / 10) ++ [digit_char (n mod 10)].
Proof. apply print_step with (digit_val := dec_val); [lia|exact dec_val_char]. Qed.

Theorem parse_hex_print n : n < USIZE_BOUND -> parse_radix 16 hex_val USIZE_BOUND (print_hex n) = Some n.
Proof. apply parse_print; [lia|exact hex_val_char]. Qed.

Lemma print_dec_digits n : print_dec n <> [] /\ forallb is_digit (print_dec n) = true.
Proof. apply (print_all 10) with (digit_val := dec_val); [lia|exact dec_val_char|exact is_digit_digit_char]. Qed.

Lemma print_hex_digits n : print_hex n <> [] /\ forallb is_lhex (print_hex n) = true.
Proof. apply (print_all 16) with (digit_val := hex_val); [lia|exact hex_val_char|exact is_lhex_hex_char]. Qed.
