(* Conc/MsgQueue.v — src/util/messages_queue.rs (MessagesQueue: one Mutex<VecDeque<Control>> + one
   Condvar) as an interleaving transition system with virtual time, over ALL label sequences: any
   number of producers and receivers, any mix of pop / try_pop / pop_timeout, any choice of the
   waiter notify_one wakes, spurious wake-ups, timeouts, passage of time. A critical section is one
   atomic step because the code holds the one mutex across it and never blocks inside.
   Labels <-> code: Push/Unblock = push / unblock (messages_queue.rs:38-49); CallPop then Resume* = pop
   (53-65); CallTry = try_pop (68-74); CallTimed then Resume* = pop_timeout (79-107: Resume computes the
   remaining time, the `timed_out || remaining < 1 ms` test and either returns or waits again with the
   FULL timeout).
   `fixed = true`: the repaired tree (re-check the queue before returning empty-handed, repair D2);
   `fixed = false`: as found. Every step is one of the seven rules `steps` (`step_rules`); the four invariants
   are preserved rule by rule. *)
From Coq Require Import List Arith Bool Lia.
Import ListNotations.

Section MQ.
Variable V : Type.
Variable MS : nat.              (* one millisecond in clock units *)
Hypothesis MS_pos : 0 < MS.
(* lia generalises every arithmetic hypothesis in scope, so each lemma whose proof calls it takes MS and 0 < MS
   after End MQ, needed or not; block_B takes them by `Proof using` *)
Variable EPS : nat.             (* scheduling latency: a timed wait is resumed within EPS of its deadline *)

Inductive item := Elem (v : V) | Token.

Inductive rstate :=
| Idle
| PopBlocked
| PopWoken
| TBlocked (t0 b rem T : nat)   (* call start; this wait's start; the `duration` variable; timeout *)
| TWoken (to : bool) (t0 b rem T : nat).

Record st := {
  q : list item; now : nat; rs : list rstate;
  pushed : list V; got : list V; unblocks : nat; tokrets : nat;
  tlog : list (nat * nat * nat)  (* (t0, T, return time) of timed calls that returned empty-handed by time *)
}.

Inductive label :=
| Push (v : V) (w : option nat) | Unblock (w : option nat)
| CallPop (t : nat) | CallTry (t : nat) | CallTimed (t T : nat)
| Spurious (t : nat) | Timeout (t : nat) | Resume (t : nat) | Tick (d : nat).

(* the same function as SeqWriter.upd and TaskPool.upd *)
Fixpoint upd {A} (l : list A) (i : nat) (x : A) : list A :=
  match l, i with [], _ => [] | _ :: t, 0 => x :: t | a :: t, S j => a :: upd t j x end.

Definition is_blocked (r : rstate) : bool := match r with PopBlocked | TBlocked _ _ _ _ => true | _ => false end.
Definition is_woken (r : rstate) : bool := match r with PopWoken | TWoken _ _ _ _ _ => true | _ => false end.
Definition count (f : rstate -> bool) (l : list rstate) : nat := length (filter f l).
Arguments count : simpl never.

Definition wake (r : rstate) : rstate :=
  match r with PopBlocked => PopWoken | TBlocked t0 b rem T => TWoken false t0 b rem T | r => r end.

(* notify_one: wakes the designated blocked waiter; `None` only when nobody is blocked *)
Definition notify (l : list rstate) (w : option nat) : option (list rstate) :=
  match w with
  | Some t => match nth_error l t with
              | Some r => if is_blocked r then Some (upd l t (wake r)) else None
              | None => None end
  | None => if Nat.eqb (count is_blocked l) 0 then Some l else None
  end.

Definition set_rs (s : st) (l : list rstate) : st :=
  {| q := q s; now := now s; rs := l; pushed := pushed s; got := got s; unblocks := unblocks s; tokrets := tokrets s; tlog := tlog s |}.

(* the body shared by pop / try_pop / pop_timeout: take the head if there is one *)
Definition take_ret (s : st) (t : nat) : option st :=
  match q s with
  | Elem v :: q' => Some {| q := q'; now := now s; rs := upd (rs s) t Idle; pushed := pushed s; got := got s ++ [v];
                            unblocks := unblocks s; tokrets := tokrets s; tlog := tlog s |}
  | Token :: q' => Some {| q := q'; now := now s; rs := upd (rs s) t Idle; pushed := pushed s; got := got s;
                            unblocks := unblocks s; tokrets := S (tokrets s); tlog := tlog s |}
  | [] => None
  end.

Definition ret_empty_timed (s : st) (t t0 T : nat) : st :=
  {| q := q s; now := now s; rs := upd (rs s) t Idle; pushed := pushed s; got := got s;
     unblocks := unblocks s; tokrets := tokrets s; tlog := tlog s ++ [(t0, T, now s)] |}.

(* time may not pass deadline + EPS while a receiver is still inside that timed wait *)
Definition in_time (t : nat) (r : rstate) : bool :=
  match r with TBlocked _ b _ T | TWoken _ _ b _ T => t <=? b + T + EPS | _ => true end.

Definition step (fixed : bool) (s : st) (l : label) : option st :=
  match l with
  | Push v w => match notify (rs s) w with
                | Some l' => Some {| q := q s ++ [Elem v]; now := now s; rs := l'; pushed := pushed s ++ [v]; got := got s;
                                     unblocks := unblocks s; tokrets := tokrets s; tlog := tlog s |}
                | None => None end
  | Unblock w => match notify (rs s) w with
                | Some l' => Some {| q := q s ++ [Token]; now := now s; rs := l'; pushed := pushed s; got := got s;
                                     unblocks := S (unblocks s); tokrets := tokrets s; tlog := tlog s |}
                | None => None end
  | CallPop t => match nth_error (rs s) t with
                 | Some Idle => match take_ret s t with Some s' => Some s' | None => Some (set_rs s (upd (rs s) t PopBlocked)) end
                 | _ => None end
  | CallTry t => match nth_error (rs s) t with
                 | Some Idle => match take_ret s t with Some s' => Some s' | None => Some s end
                 | _ => None end
  | CallTimed t T => match nth_error (rs s) t with
                 | Some Idle => match take_ret s t with Some s' => Some s'
                                | None => Some (set_rs s (upd (rs s) t (TBlocked (now s) (now s) T T))) end
                 | _ => None end
  | Spurious t => match nth_error (rs s) t with
                 | Some r => if is_blocked r then Some (set_rs s (upd (rs s) t (wake r))) else None
                 | None => None end
  | Timeout t => match nth_error (rs s) t with
                 | Some (TBlocked t0 b rem T) => if b + T <=? now s then Some (set_rs s (upd (rs s) t (TWoken true t0 b rem T))) else None
                 | _ => None end
  | Resume t => match nth_error (rs s) t with
                 | Some PopWoken => match take_ret s t with Some s' => Some s' | None => Some (set_rs s (upd (rs s) t PopBlocked)) end
                 | Some (TWoken to t0 b rem T) =>
                     let rem' := rem - (now s - b) in
                     if to || (rem' <? MS) then
                       if fixed then match take_ret s t with Some s' => Some s' | None => Some (ret_empty_timed s t t0 T) end
                       else Some (ret_empty_timed s t t0 T)
                     else match take_ret s t with Some s' => Some s'
                          | None => Some (set_rs s (upd (rs s) t (TBlocked t0 (now s) rem' T))) end
                 | _ => None end
  | Tick d => if negb (forallb (in_time (now s + d)) (rs s)) then None else
              Some {| q := q s; now := now s + d; rs := rs s; pushed := pushed s; got := got s;
                      unblocks := unblocks s; tokrets := tokrets s; tlog := tlog s |}
  end.

Fixpoint run (fixed : bool) (s : st) (ls : list label) : option st :=
  match ls with [] => Some s | l :: ls' => match step fixed s l with Some s' => run fixed s' ls' | None => None end end.

Definition init (n : nat) : st :=
  {| q := []; now := 0; rs := repeat Idle n; pushed := []; got := []; unblocks := 0; tokrets := 0; tlog := [] |}.

Fixpoint elems (l : list item) : list V := match l with [] => [] | Elem v :: t => v :: elems t | Token :: t => elems t end.
Fixpoint ntok (l : list item) : nat := match l with [] => 0 | Elem _ :: t => ntok t | Token :: t => S (ntok t) end.

Lemma elems_app a b : elems (a ++ b) = elems a ++ elems b.
Proof. induction a as [|[v|] a IH]; cbn; auto. now rewrite IH. Qed.
Lemma ntok_app a b : ntok (a ++ b) = ntok a + ntok b.
Proof. induction a as [|[v|] a IH]; cbn; auto. Qed.

Lemma take_ret_none s t : take_ret s t = None -> q s = [].
Proof. unfold take_ret. destruct (q s) as [|[v|] q']; auto; discriminate. Qed.

Lemma notify_cases l w l' : notify l w = Some l' ->
  (count is_blocked l = 0 /\ l' = l) \/
  (exists t r, nth_error l t = Some r /\ is_blocked r = true /\ l' = upd l t (wake r)).
Proof.
  unfold notify. destruct w as [t|].
  - destruct (nth_error l t) as [r|] eqn:E; [|discriminate]. destruct (is_blocked r) eqn:Eb; [|discriminate].
    intros [= <-]. right. eauto.
  - destruct (Nat.eqb_spec (count is_blocked l) 0); [|discriminate]. intros [= <-]. auto.
Qed.

Definition acts (l : label) (t : nat) : Prop :=
  match l with CallPop u | CallTry u | CallTimed u _ | Resume u => u = t | _ => False end.

(* receiver t goes from r to r' and nothing else changes; it goes to sleep only on an empty queue *)
Inductive moves (s : st) : label -> nat -> rstate -> rstate -> Prop :=
| MPop t : q s = [] -> moves s (CallPop t) t Idle PopBlocked
| MTimed t T : q s = [] -> moves s (CallTimed t T) t Idle (TBlocked (now s) (now s) T T)
| MTimeout t t0 b rem T : b + T <= now s -> moves s (Timeout t) t (TBlocked t0 b rem T) (TWoken true t0 b rem T)
| MWake t r : is_blocked r = true -> moves s (Spurious t) t r (wake r)
| MRePop t : q s = [] -> moves s (Resume t) t PopWoken PopBlocked
| MReTimed t t0 b rem T : q s = [] -> MS <= rem - (now s - b) ->
    moves s (Resume t) t (TWoken false t0 b rem T) (TBlocked t0 (now s) (rem - (now s - b)) T).

Inductive steps (fixed : bool) (s : st) : label -> st -> Prop :=
| SPush v w l' : notify (rs s) w = Some l' ->
    steps fixed s (Push v w) {| q := q s ++ [Elem v]; now := now s; rs := l'; pushed := pushed s ++ [v]; got := got s;
                                unblocks := unblocks s; tokrets := tokrets s; tlog := tlog s |}
| SUnblock w l' : notify (rs s) w = Some l' ->
    steps fixed s (Unblock w) {| q := q s ++ [Token]; now := now s; rs := l'; pushed := pushed s; got := got s;
                                 unblocks := S (unblocks s); tokrets := tokrets s; tlog := tlog s |}
| STake l t r s' : acts l t -> nth_error (rs s) t = Some r -> is_blocked r = false -> take_ret s t = Some s' ->
    steps fixed s l s'
| STryEmpty t : steps fixed s (CallTry t) s
| SMove l t r r' : nth_error (rs s) t = Some r -> moves s l t r r' -> steps fixed s l (set_rs s (upd (rs s) t r'))
| SEmpty t to t0 b rem T : nth_error (rs s) t = Some (TWoken to t0 b rem T) ->
    (to || (rem - (now s - b) <? MS)) = true -> (fixed = true -> q s = []) ->
    steps fixed s (Resume t) (ret_empty_timed s t t0 T)
| STick d : forallb (in_time (now s + d)) (rs s) = true ->
    steps fixed s (Tick d) {| q := q s; now := now s + d; rs := rs s; pushed := pushed s; got := got s;
                              unblocks := unblocks s; tokrets := tokrets s; tlog := tlog s |}.

Lemma step_rules fixed s l s' : step fixed s l = Some s' -> steps fixed s l s'.
Proof.
  assert (TK : forall l t r s0, acts l t -> nth_error (rs s) t = Some r -> is_blocked r = false ->
            (q s = [] -> steps fixed s l s0) ->
            match take_ret s t with Some s1 => Some s1 | None => Some s0 end = Some s' -> steps fixed s l s').
  { intros l0 t r s0 Ha Hn Hb H0 H. destruct (take_ret s t) as [s1|] eqn:E; injection H as <-.
    - exact (STake _ _ _ t r s1 Ha Hn Hb E).
    - exact (H0 (take_ret_none _ _ E)). }
  intros H. destruct l; cbn [step] in H.
  - destruct (notify (rs s) w) as [l'|] eqn:En; [|discriminate]. injection H as <-. now apply SPush.
  - destruct (notify (rs s) w) as [l'|] eqn:En; [|discriminate]. injection H as <-. now apply SUnblock.
  - destruct (nth_error (rs s) t) as [[| | | |]|] eqn:En; try discriminate.
    refine (TK (CallPop t) t Idle _ eq_refl En eq_refl _ H). intros Hq. apply (SMove _ _ _ t Idle _ En). now apply MPop.
  - destruct (nth_error (rs s) t) as [[| | | |]|] eqn:En; try discriminate.
    refine (TK (CallTry t) t Idle _ eq_refl En eq_refl _ H). intros _. apply STryEmpty.
  - destruct (nth_error (rs s) t) as [[| | | |]|] eqn:En; try discriminate.
    refine (TK (CallTimed t T) t Idle _ eq_refl En eq_refl _ H). intros Hq. apply (SMove _ _ _ t Idle _ En). now apply MTimed.
  - destruct (nth_error (rs s) t) as [r|] eqn:En; [|discriminate]. destruct (is_blocked r) eqn:Eb; [|discriminate].
    injection H as <-. apply (SMove _ _ _ t r _ En). now apply MWake.
  - destruct (nth_error (rs s) t) as [[| | |t0 b rem T|]|] eqn:En; try discriminate.
    destruct (Nat.leb_spec (b + T) (now s)); [|discriminate]. injection H as <-.
    apply (SMove _ _ _ t _ _ En). now apply MTimeout.
  - destruct (nth_error (rs s) t) as [[| | | |to t0 b rem T]|] eqn:En; try discriminate.
    + refine (TK (Resume t) t PopWoken _ eq_refl En eq_refl _ H). intros Hq. apply (SMove _ _ _ t _ _ En). now apply MRePop.
    + destruct (to || (rem - (now s - b) <? MS)) eqn:Ec.
      * destruct fixed.
        -- refine (TK (Resume t) t _ _ eq_refl En eq_refl _ H). intros Hq. now apply (SEmpty _ _ t to t0 b rem T).
        -- injection H as <-. now apply (SEmpty _ _ t to t0 b rem T).
      * apply orb_false_iff in Ec as [-> Ec]. apply Nat.ltb_ge in Ec.
        refine (TK (Resume t) t _ _ eq_refl En eq_refl _ H). intros Hq. apply (SMove _ _ _ t _ _ En). now apply MReTimed.
  - destruct (forallb (in_time (now s + d)) (rs s)) eqn:Ef; [|discriminate]. injection H as <-. now apply STick.
Qed.

Lemma run_inv (I : st -> Prop) fixed : (forall s l s', I s -> step fixed s l = Some s' -> I s') ->
  forall ls s s', I s -> run fixed s ls = Some s' -> I s'.
Proof.
  intros HS. induction ls as [|l ls IH]; cbn; intros s s' HI H.
  - now injection H as <-.
  - destruct (step fixed s l) as [s1|] eqn:E; [|discriminate]. exact (IH _ _ (HS _ _ _ HI E) H).
Qed.

(* FIFO, exactly once; tokens conserved. Holds for fixed = false too *)
Definition InvA (s : st) : Prop := got s ++ elems (q s) = pushed s /\ tokrets s + ntok (q s) = unblocks s.

Lemma take_ret_A s t s' : InvA s -> take_ret s t = Some s' -> InvA s'.
Proof.
  intros [H1 H2] H. unfold take_ret in H. destruct (q s) as [|[v|] q'] eqn:E; inversion H; subst; unfold InvA; cbn in *.
  - split; [now rewrite <- app_assoc|assumption].
  - split; [assumption|lia].
Qed.

Lemma step_A fixed s l s' : InvA s -> step fixed s l = Some s' -> InvA s'.
Proof.
  intros HI H. pose proof HI as [H1 H2].
  destruct (step_rules _ _ _ _ H) as [v w l' _|w l' _|l t r s' _ _ _ Ht| | | |]; try exact HI.
  - unfold InvA; cbn. rewrite elems_app, ntok_app; cbn. split; [now rewrite app_assoc, H1|lia].
  - unfold InvA; cbn. rewrite elems_app, ntok_app; cbn. split; [now rewrite app_nil_r|lia].
  - exact (take_ret_A _ _ _ HI Ht).
Qed.

Theorem fifo_exactly_once fixed n ls s : run fixed (init n) ls = Some s ->
  got s ++ elems (q s) = pushed s /\ tokrets s + ntok (q s) = unblocks s.
Proof. apply (run_inv InvA fixed (step_A fixed)). split; reflexivity. Qed.

(* no lost wake-up: while anyone is blocked every queued item has an awake receiver *)
Definition InvB (s : st) : Prop := 0 < count is_blocked (rs s) -> length (q s) <= count is_woken (rs s).

Lemma count_upd f l i old x : nth_error l i = Some old ->
  count f (upd l i x) + (if f old then 1 else 0) = count f l + (if f x then 1 else 0).
Proof.
  unfold count. revert i. induction l as [|a l IH]; intros [|i] H; cbn in *; try discriminate.
  - inversion H; subst a. destruct (f old), (f x); cbn; lia.
  - specialize (IH i H). destruct (f a); cbn; lia.
Qed.

Lemma count_woken l t r r' : nth_error l t = Some r -> is_blocked r = true -> is_blocked r' = false -> is_woken r' = true ->
  count is_blocked (upd l t r') + 1 = count is_blocked l /\ count is_woken (upd l t r') = count is_woken l + 1.
Proof.
  intros Hn Hb Hb' Hw'. pose proof (count_upd is_blocked l t r r' Hn) as Cb. pose proof (count_upd is_woken l t r r' Hn) as Cw.
  rewrite Hb, Hb' in Cb. rewrite Hw' in Cw. destruct r; try discriminate; cbn in Cw; lia.
Qed.

Lemma wake_woken r : is_blocked r = true -> is_blocked (wake r) = false /\ is_woken (wake r) = true.
Proof. destruct r; try discriminate; auto. Qed.

Lemma take_ret_B s t r s' : nth_error (rs s) t = Some r -> is_blocked r = false ->
  InvB s -> take_ret s t = Some s' -> InvB s'.
Proof.
  intros Hn Hb HI H. unfold take_ret in H.
  pose proof (count_upd is_blocked (rs s) t r Idle Hn) as Cb. pose proof (count_upd is_woken (rs s) t r Idle Hn) as Cw.
  rewrite Hb in Cb. cbn in Cb, Cw. unfold InvB in *.
  destruct (q s) as [|[v|] q'] eqn:E; inversion H; subst; cbn in *; intros Hpos;
    (assert (Hq : S (length q') <= count is_woken (rs s)) by (apply HI; lia)); destruct (is_woken r); lia.
Qed.

Lemma notify_counts l w l' : notify l w = Some l' ->
  (count is_blocked l = 0 /\ l' = l) \/
  (count is_blocked l' + 1 = count is_blocked l /\ count is_woken l' = count is_woken l + 1).
Proof.
  intros H. destruct (notify_cases _ _ _ H) as [Hz|(t & r & Hn & Hb & ->)]; [left; exact Hz|right].
  destruct (wake_woken r Hb). now apply (count_woken l t r).
Qed.

Lemma empty_B s : q s = [] -> InvB s.
Proof. intros Hq _. rewrite Hq. apply Nat.le_0_l. Qed.

(* special case of empty_B, in the shape of SMove *)
Lemma block_B s t r r' : nth_error (rs s) t = Some r -> is_blocked r = false -> is_blocked r' = true -> is_woken r' = false ->
  q s = [] -> InvB (set_rs s (upd (rs s) t r')).
Proof using MS_pos. intros _ _ _ _ Hq. now apply empty_B. Qed.

Lemma step_B s l s' : InvB s -> step true s l = Some s' -> InvB s'.
Proof.
  (* a receiver goes to sleep only on an empty queue; one that wakes up adds to the awake, and leaves the blocked *)
  assert (WK : forall t r r', nth_error (rs s) t = Some r -> is_blocked r = true -> is_blocked r' = false ->
            is_woken r' = true -> InvB s -> InvB (set_rs s (upd (rs s) t r'))).
  { intros t r r' Hn Hb Hb' Hw' HI. unfold InvB in *; cbn. destruct (count_woken _ _ _ _ Hn Hb Hb' Hw'). lia. }
  intros HI H.
  destruct (step_rules _ _ _ _ H) as [v w l' Hn|w l' Hn|l t r s' _ Hn Hb Ht|t|l t r r' Hn Hm|t to t0 b rem T Hn _ Hq|d _].
  1, 2: unfold InvB in *; cbn; rewrite app_length; cbn; destruct (notify_counts _ _ _ Hn) as [[Hz ->]|[Hb Hw]]; lia.
  - exact (take_ret_B _ _ _ _ Hn Hb HI Ht).
  - exact HI.
  - destruct Hm as [t Hq|t T Hq|t t0 b rem T _|t r Hb|t Hq|t t0 b rem T Hq _]; try (now apply empty_B).
    + now apply (WK t (TBlocked t0 b rem T)).
    + destruct (wake_woken r Hb). now apply (WK t r).
  - now apply empty_B, Hq.
  - exact HI.
Qed.

Theorem no_lost_wakeup n ls s : run true (init n) ls = Some s ->
  0 < count is_blocked (rs s) -> length (q s) <= count is_woken (rs s).
Proof. apply (run_inv InvB true step_B). unfold InvB, init; cbn. lia. Qed.

Lemma resume_woken s t r : nth_error (rs s) t = Some r -> is_woken r = true -> q s <> [] ->
  exists s', step true s (Resume t) = Some s' /\ take_ret s t = Some s'.
Proof.
  intros Hn Hw Hq. assert (exists s', take_ret s t = Some s') as [s' Ht].
  { unfold take_ret. destruct (q s) as [|[v|] q']; [congruence| |]; eauto. }
  exists s'. split; [|exact Ht]. cbn [step]. rewrite Hn. destruct r; try discriminate.
  - now rewrite Ht.
  - rewrite Ht. destruct (to || (rem - (now s - b) <? MS)); reflexivity.
Qed.

Theorem woken_takes_head s t r : nth_error (rs s) t = Some r -> is_woken r = true -> q s <> [] ->
  exists s', step true s (Resume t) = Some s' /\ length (q s') + 1 = length (q s).
Proof.
  intros Hn Hw Hq. destruct (resume_woken s t r Hn Hw Hq) as (s' & Hs & Ht). exists s'. split; [exact Hs|].
  unfold take_ret in Ht. destruct (q s) as [|[v|] q']; inversion Ht; cbn; lia.
Qed.

Lemma nth_upd_same {A} (l : list A) i x old : nth_error l i = Some old -> nth_error (upd l i x) i = Some x.
Proof. revert i; induction l as [|a l IH]; intros [|i] H; cbn in *; try discriminate; auto. Qed.

Lemma upd_all {A} (P : A -> Prop) (l : list A) i x :
  (forall t r, nth_error l t = Some r -> P r) -> P x -> forall t r, nth_error (upd l i x) t = Some r -> P r.
Proof.
  revert i. induction l as [|a l IH]; intros [|i] Hl Hx [|t] r H; cbn in *; try discriminate.
  - inversion H; subst; auto.
  - apply (Hl (S t)); auto.
  - inversion H; subst. apply (Hl 0); auto.
  - eapply IH; eauto. intros t' r' H'. apply (Hl (S t')); auto.
Qed.

Lemma notify_all (P : rstate -> Prop) l w l' : (forall r, P r -> P (wake r)) ->
  (forall t r, nth_error l t = Some r -> P r) -> notify l w = Some l' -> forall t r, nth_error l' t = Some r -> P r.
Proof.
  intros PW Hl H. destruct (notify_cases _ _ _ H) as [[_ ->]|(t & r & Hn & _ & ->)]; [exact Hl|].
  apply upd_all; [exact Hl|]. exact (PW r (Hl t r Hn)).
Qed.

(* the `duration` variable after a second wait *)
Lemma rem_resumed t0 b n T : t0 <= b -> b <= n -> T - (b - t0) - (n - b) = T - (n - t0).
Proof. lia. Qed.

Definition timed_inv (P : nat -> rstate -> Prop) (Q : nat -> nat -> nat -> Prop) (s : st) : Prop :=
  (forall t r, nth_error (rs s) t = Some r -> P (now s) r) /\
  (forall t0 T t1, In (t0, T, t1) (tlog s) -> Q t0 T t1).

Lemma init_timed (P : nat -> rstate -> Prop) (Q : nat -> nat -> nat -> Prop) n : (forall n, P n Idle) -> timed_inv P Q (init n).
Proof.
  intros PI. split; cbn; [|tauto]. intros t r Hn. apply nth_error_In, repeat_spec in Hn. subst. apply PI.
Qed.

Lemma take_ret_timed (P : nat -> rstate -> Prop) (Q : nat -> nat -> nat -> Prop) s t s' : (forall n, P n Idle) -> timed_inv P Q s -> take_ret s t = Some s' -> timed_inv P Q s'.
Proof.
  intros PI [HR HL] H. unfold take_ret in H.
  destruct (q s) as [|[v|] q']; inversion H; subst; (split; cbn; [apply upd_all; [exact HR|apply PI]|exact HL]).
Qed.

(* the scheme of the two timing bounds: P of every receiver at the present time, Q of every logged return by time *)
Lemma step_timed (P : nat -> rstate -> Prop) (Q : nat -> nat -> nat -> Prop) :
  (forall n, P n Idle) ->
  (forall n r, P n r -> P n (wake r)) ->
  (forall s l t r r', moves s l t r r' -> P (now s) r -> P (now s) r') ->
  (forall n d r, in_time (n + d) r = true -> P n r -> P (n + d) r) ->
  (forall n to t0 b rem T, P n (TWoken to t0 b rem T) -> (to || (rem - (n - b) <? MS)) = true -> Q t0 T n) ->
  forall fixed s l s', timed_inv P Q s -> step fixed s l = Some s' -> timed_inv P Q s'.
Proof.
  intros PI PW PM PL PQ fixed s l s' HI H. pose proof HI as [HR HL].
  destruct (step_rules _ _ _ _ H) as [v w l' Hn|w l' Hn|l t r s' _ _ _ Ht|t|l t r r' Hn Hm|t to t0 b rem T Hn Hc _|d Hf].
  1, 2: split; cbn; [exact (notify_all _ _ _ _ (PW _) HR Hn)|exact HL].
  - exact (take_ret_timed _ _ _ _ _ PI HI Ht).
  - exact HI.
  - split; cbn; [|exact HL]. apply upd_all; [exact HR|]. exact (PM _ _ _ _ _ Hm (HR t r Hn)).
  - split; cbn; [apply upd_all; [exact HR|apply PI]|].
    intros a b0 c Hin. apply in_app_or in Hin as [Hin|[[= <- <- <-]|[]]]; [exact (HL _ _ _ Hin)|].
    exact (PQ _ _ _ _ _ _ (HR t _ Hn) Hc).
  - split; cbn; [|exact HL]. intros t r Hn. rewrite forallb_forall in Hf.
    exact (PL _ _ _ (Hf r (nth_error_In _ _ Hn)) (HR t r Hn)).
Qed.

(* timed receive: no empty-handed return before T - 1 ms *)
Definition okT (now_ : nat) (r : rstate) : Prop :=
  match r with
  | TBlocked t0 b rem T | TWoken _ t0 b rem T => t0 <= b /\ b <= now_ /\ rem = T - (b - t0)
  | _ => True end.
Definition okTo (now_ : nat) (r : rstate) : Prop :=
  match r with TWoken true t0 b rem T => b + T <= now_ | _ => True end.
Definition okR now_ r := okT now_ r /\ okTo now_ r.
(* InvC is timed_inv okR (fun t0 T t1 => T <= (t1 - t0) + MS) unfolded; the proofs below use the two as convertible *)
Definition InvC (s : st) : Prop :=
  (forall t r, nth_error (rs s) t = Some r -> okR (now s) r) /\
  (forall t0 T t1, In (t0, T, t1) (tlog s) -> T <= (t1 - t0) + MS).

Lemma okR_idle n : okR n Idle.
Proof. split; exact I. Qed.
Lemma okR_wake n r : okR n r -> okR n (wake r).
Proof. unfold okR. destruct r; cbn; tauto. Qed.
Lemma okR_moves s l t r r' : moves s l t r r' -> okR (now s) r -> okR (now s) r'.
Proof.
  destruct 1 as [t _|t T _|t t0 b rem T Hto|t r _|t _|t t0 b rem T _ _]; [| | |apply okR_wake| |]; unfold okR; cbn; try tauto.
  - rewrite Nat.sub_diag, Nat.sub_0_r. auto.
  - intros [(H0b & Hbn & ->) _]. repeat split; [lia|lia|now apply rem_resumed].
Qed.
Lemma okR_later n d r : in_time (n + d) r = true -> okR n r -> okR (n + d) r.
Proof. intros _. unfold okR. destruct r as [| | | |[]]; cbn; lia. Qed.
Lemma okR_timed_out n to t0 b rem T :
  okR n (TWoken to t0 b rem T) -> (to || (rem - (n - b) <? MS)) = true -> T <= (n - t0) + MS.
Proof.
  intros [(H0b & Hbn & Hrem) Hto] Hc. apply orb_true_iff in Hc as [->|Hc]; [cbn in Hto; lia|].
  apply Nat.ltb_lt in Hc. lia.
Qed.

Lemma take_ret_C s t s' : InvC s -> take_ret s t = Some s' -> InvC s'.
Proof. exact (take_ret_timed okR _ s t s' okR_idle). Qed.

Lemma notify_C now_ l w l' : (forall t r, nth_error l t = Some r -> okR now_ r) -> notify l w = Some l' ->
  forall t r, nth_error l' t = Some r -> okR now_ r.
Proof. apply notify_all, okR_wake. Qed.

Lemma step_C fixed s l s' : InvC s -> step fixed s l = Some s' -> InvC s'.
Proof. exact (step_timed okR _ okR_idle okR_wake okR_moves okR_later okR_timed_out fixed s l s'). Qed.

Theorem timed_lower_bound fixed n ls s : run fixed (init n) ls = Some s ->
  forall t0 T t1, In (t0, T, t1) (tlog s) -> T <= (t1 - t0) + MS.
Proof.
  intros H. apply (run_inv InvC fixed (step_C fixed) ls (init n) s); [|exact H]. exact (init_timed okR _ n okR_idle).
Qed.

(* timed receive: empty-handed return no later than 2T + EPS *)
Definition okD (now_ : nat) (r : rstate) : Prop :=
  match r with
  | TBlocked t0 b rem T | TWoken _ t0 b rem T => now_ <= b + T + EPS /\ t0 <= b /\ (b = t0 \/ (b - t0) + MS <= T) /\ rem = T - (b - t0) /\ b <= now_
  | _ => True end.
(* InvD is timed_inv okD (fun t0 T t1 => t1 <= t0 + 2 * T + EPS) unfolded *)
Definition InvD (s : st) : Prop :=
  (forall t r, nth_error (rs s) t = Some r -> okD (now s) r) /\
  (forall t0 T t1, In (t0, T, t1) (tlog s) -> t1 <= t0 + 2 * T + EPS).

Lemma okD_idle n : okD n Idle.
Proof. exact I. Qed.
Lemma okD_wake n r : okD n r -> okD n (wake r).
Proof. destruct r; cbn; tauto. Qed.
(* a timed wait is resumed only when a whole millisecond of it remains; this is where 0 < MS counts *)
Lemma okD_moves s l t r r' : moves s l t r r' -> okD (now s) r -> okD (now s) r'.
Proof.
  destruct 1 as [t _|t T _|t t0 b rem T _|t r _|t _|t t0 b rem T _ Hrem]; [| | |apply okD_wake| |]; cbn; auto.
  - lia.
  - intros (_ & H0b & _ & -> & Hbn). rewrite rem_resumed in * by assumption.
    repeat split; [lia|lia|right; lia|lia].
Qed.
Lemma okD_later n d r : in_time (n + d) r = true -> okD n r -> okD (n + d) r.
Proof. destruct r; cbn; auto; intros Hf%Nat.leb_le; lia. Qed.
(* the last wait began no later than t0 + T and lasted no longer than T + EPS *)
Lemma okD_timed_out n to t0 b rem T :
  okD n (TWoken to t0 b rem T) -> (to || (rem - (n - b) <? MS)) = true -> n <= t0 + 2 * T + EPS.
Proof. cbn. lia. Qed.

Lemma take_ret_D s t s' : InvD s -> take_ret s t = Some s' -> InvD s'.
Proof. exact (take_ret_timed okD _ s t s' okD_idle). Qed.

Lemma notify_D now_ l w l' : (forall t r, nth_error l t = Some r -> okD now_ r) -> notify l w = Some l' ->
  forall t r, nth_error l' t = Some r -> okD now_ r.
Proof. apply notify_all, okD_wake. Qed.

Lemma step_D fixed s l s' : InvD s -> step fixed s l = Some s' -> InvD s'.
Proof. exact (step_timed okD _ okD_idle okD_wake okD_moves okD_later okD_timed_out fixed s l s'). Qed.

Theorem timed_upper_bound fixed n ls s : run fixed (init n) ls = Some s ->
  forall t0 T t1, In (t0, T, t1) (tlog s) -> t1 <= t0 + 2 * T + EPS.
Proof.
  intros H. apply (run_inv InvD fixed (step_D fixed) ls (init n) s); [|exact H]. exact (init_timed okD _ n okD_idle).
Qed.
End MQ.

(* the tree as found: a notification that reaches a timed receiver in its last millisecond is lost *)
Example asfound_lost_wakeup :
  exists ls s, run nat 10 5 false (init nat 2) ls = Some s /\
    0 < count is_blocked (rs nat s) /\ ~ length (q nat s) <= count is_woken (rs nat s).
Proof.
  exists [CallTimed nat 0 300; CallPop nat 1; Tick nat 294; Push nat 7 (Some 0); Resume nat 0].
  eexists. split; [vm_compute; reflexivity|]. vm_compute. split; [lia|lia].
Qed.
