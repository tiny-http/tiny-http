(* Http/C03Facts.v — behind the body-side statements of C03 and C09 (Props/C03.v, Props/C09.v): the
   generic argument of BodyFacts.v for reads, and on for take and do_reads, with the stream's flag and
   the drop (Section Pack), used at its instances (BodyFacts.v, ChunkedReader.v) and for any reader that has
   its whole body on the connection (whole_body). *)
From TH Require Import Base.Bytes Base.BytesFacts Http.Request Http.Body Http.Serve.
From TH Require Import Http.BodyFacts Http.ChunkedFacts Http.ChunkedReader Http.StreamFacts.
From Coq Require Import Lia.

Definition bufs_pos (rs : list (N * nat)) : Prop := Forall (fun mn => (0 < snd mn)%nat) rs.
Definition sum_m (rs : list (N * nat)) : N := fold_right (fun mn a => (fst mn + a)%N) 0%N rs.

(* the fuel Serve.do_reads gives each `take` *)
Definition reads_fuel (r : breader) (st : stream) : nat :=
  S (List.length (sbytes st) + match r with BBuffered d => List.length d | _ => 0 end).

(* a of the m bytes wanted are taken, b are left of the body, and the recursive call for the remaining
   m - a got g: what its outcome says about m *)
Lemma count_down (a b g m : N) : (a <= m)%N ->
  ((b < m - a -> a + b < m) /\ (m - a <= b -> m <= a + b) /\ (g = m - a -> a + g = m))%N.
Proof. lia. Qed.

Section Pack.
Variable tail : bytes.
Variable Inv : bytes -> breader -> stream -> Prop.
Hypothesis step : step_spec tail Inv.
Hypothesis drop : drop_spec tail Inv.

Lemma pack_drop rest r st al : Inv rest r st -> fst (body_drop fixed r st al) = mkS tail (seof st).
Proof. intros HI. apply stream_eq; [exact (drop _ _ _ al HI)|exact (proj1 (body_drop_adv _ _ _ _))]. Qed.

Lemma pack_reads ns body r x e al ps en r' st' al' : all_pos ns -> Inv body r (mkS x e) ->
  reads fixed ns r (mkS x e) al = (ps, en, r', st', al') ->
  exists rest, body = List.concat ps ++ rest /\ Inv rest r' st' /\ seof st' = e /\ al' = al /\ pieces_fit ns ps /\
    fst (body_drop fixed r' st' al') = mkS tail e /\
    (en = None \/ en = Some REof) /\
    (en = None -> List.length ps = List.length ns) /\
    (en = Some REof -> rest = [] /\ List.concat ps = body /\ st' = mkS tail e /\ stable r' st') /\
    ((List.length body < List.length ns)%nat -> en = Some REof).
Proof.
  intros Hpos HI E. pose proof (proj1 (reads_adv fixed ns r (mkS x e) al)) as He. rewrite E in He. cbn [fst snd seof] in He.
  destruct (reads_spec tail Inv step ns body r (mkS x e) al Hpos HI) as (ps0 & en0 & rest & r0 & st0 & E0 & Hb & HI' & Hf & Hend).
  rewrite E in E0. injection E0 as <- <- <- <- ->.
  pose proof (pack_drop _ _ _ al HI') as Hd. rewrite He in Hd.
  exists rest. do 6 (split; [assumption || reflexivity|]).
  destruct Hend as [[-> Hl]|(-> & -> & Ht & Hs)].
  - split; [now left|]. split; [auto|]. split; [discriminate|].
    (* every piece is non-empty, so |ns| = |ps| <= |body| *)
    intros Hlen. apply pieces_fit_length in Hf. subst body. rewrite app_length in Hlen. lia.
  - rewrite app_nil_r in Hb. split; [now right|]. split; [discriminate|]. split; [|auto].
    intros _. repeat split; auto. now apply stream_eq.
Qed.

(* the loop "obtain up to m bytes with an n-byte buffer"; fuel |body|+1 suffices *)
Lemma pack_take : forall fuel m n body r x e al acc, (0 < n)%nat -> Inv body r (mkS x e) ->
  (List.length body < fuel)%nat ->
  exists acc' en got rest r' st',
    take fixed fuel m n r (mkS x e) al acc = (acc', en, r', st', al) /\
    pieces_bytes acc' = pieces_bytes acc ++ got /\ body = got ++ rest /\ Inv rest r' st' /\ seof st' = e /\
    (((len body < m)%N /\ en = EndEof /\ rest = [] /\ st' = mkS tail e /\ stable r' st') \/
     ((m <= len body)%N /\ en = EndCount /\ len got = m)) /\
    fst (body_drop fixed r' st' al) = mkS tail e.
Proof.
  induction fuel as [|f IH]; intros m n body r x e al acc Hn HI Hf; [lia|]. cbn [take].
  destruct (N.eqb_spec m 0) as [->|Hm].
  - exists acc, EndCount, [], body, r, (mkS x e). rewrite app_nil_r. repeat split; auto; [|exact (pack_drop _ _ _ al HI)].
    right. unfold len. cbn. repeat split; lia.
  - set (k := N.to_nat (N.min m (N.of_nat n))). assert (Hw : (0 < k)%nat) by (unfold k; lia).
    rewrite (body_read_any_pos _ _ _ _ _ Hw).
    pose proof (proj1 (body_read_adv fixed k r (mkS x e) al)) as He.
    destruct (step k body r (mkS x e) al Hw HI) as [(d & rest' & r1 & [x1 e1] & E & Hd & Hl & Hb & HI1)|(Hb & r1 & st1 & E & HI1 & Ht & Hs)];
      rewrite E in *; cbn [fst snd seof] in He.
    + subst e1. apply length_pos in Hd. assert (Hf' : (List.length rest' < f)%nat) by (subst body; rewrite app_length in Hf; lia).
      destruct (IH (m - len d)%N n rest' r1 x1 e al (d :: acc) Hn HI1 Hf') as (acc' & en & got & rest & r2 & st2 & E2 & Hp & Hb2 & HI2 & He2 & Hend & Hdr).
      rewrite E2. exists acc', en, (d ++ got), rest, r2, st2. repeat split; auto.
      * now rewrite Hp, pieces_bytes_cons, app_assoc.
      * now rewrite <- app_assoc, <- Hb2.
      * subst body. rewrite len_app.
        destruct (count_down (len d) (len rest') (len got) m) as (A1 & A2 & A3); [clear - Hl; unfold k, len in Hl; unfold len; lia|].
        destruct Hend as [(H1 & -> & -> & H4 & H5)|(H1 & -> & H3)]; [left; auto|right].
        rewrite len_app. auto.
    + exists acc, EndEof, [], [], r1, st1. rewrite app_nil_r. subst body. repeat split; auto; [|rewrite <- He; exact (pack_drop _ _ _ al HI1)].
      left. unfold len. cbn [List.length]. repeat split; auto; [lia|now apply stream_eq].
Qed.

Hypothesis fuel_ok : forall rest r st, Inv rest r st ->
  (List.length rest < reads_fuel r st)%nat.

Lemma pack_do_reads : forall rs body r x e al acc, bufs_pos rs -> Inv body r (mkS x e) ->
  exists acc' en got rest r' st',
    do_reads fixed rs r (mkS x e) al acc EndCount = (acc', en, r', st', al) /\
    pieces_bytes acc' = pieces_bytes acc ++ got /\ body = got ++ rest /\ Inv rest r' st' /\ seof st' = e /\
    ((en = EndCount /\ len got = sum_m rs) \/
     (en = EndEof /\ rest = [] /\ (len body < sum_m rs)%N /\ st' = mkS tail e /\ stable r' st')) /\
    fst (body_drop fixed r' st' al) = mkS tail e.
Proof.
  induction rs as [|[m n] rs IH]; intros body r x e al acc Hpos HI.
  - cbn [do_reads]. exists acc, EndCount, [], body, r, (mkS x e). rewrite app_nil_r. repeat split; auto.
    exact (pack_drop _ _ _ al HI).
  - apply Forall_cons_iff in Hpos as [Hn Hpos']. cbn [snd] in Hn. cbn [do_reads].
    change (sum_m ((m, n) :: rs)) with (m + sum_m rs)%N.
    pose proof (fuel_ok _ _ _ HI) as Hf. unfold reads_fuel in Hf.
    destruct (pack_take _ m n body r x e al acc Hn HI Hf)
      as (acc1 & en1 & got1 & rest1 & r1 & st1 & E & Hp & Hb & HI1 & He & Hend & Hd).
    rewrite E. destruct Hend as [(H1 & -> & H3 & H4 & H5)|(H1 & -> & H3)].
    + exists acc1, EndEof, got1, rest1, r1, st1. repeat split; auto. right. repeat split; auto.
      clear - H1. lia.
    + destruct st1 as [x1 e1]. cbn [seof] in He. subst e1.
      destruct (IH rest1 r1 x1 e al acc1 Hpos' HI1) as (acc2 & en2 & got2 & rest2 & r2 & st2 & E2 & Hp2 & Hb2 & HI2 & He2 & Hend2 & Hd2).
      rewrite E2. exists acc2, en2, (got1 ++ got2), rest2, r2, st2. repeat split; auto.
      * now rewrite Hp2, Hp, app_assoc.
      * now rewrite <- app_assoc, <- Hb2.
      * subst body. rewrite !len_app, H3.
        destruct Hend2 as [[-> Hl]|(-> & -> & Hl & Hs)]; [left|right].
        -- now rewrite Hl.
        -- split; [reflexivity|]. split; [reflexivity|]. split; [now apply N.add_lt_mono_l|exact Hs].
Qed.
End Pack.
Arguments pack_reads {tail Inv} step drop {ns body r x e al ps en r' st' al'}.
Arguments pack_take {tail Inv} step drop fuel m n {body r x e} al acc.
Arguments pack_do_reads {tail Inv} step drop fuel_ok rs {body r x e} al acc.

Lemma lim_fuel_ok tail rest r st : lim_inv tail rest r st ->
  (List.length rest < reads_fuel r st)%nat.
Proof. unfold reads_fuel. intros [[-> Hs]|(-> & -> & Hs)]; rewrite Hs; [rewrite app_length|cbn [List.length]]; lia. Qed.
Lemma buf_fuel_ok st0 rest r st : buf_inv st0 rest r st ->
  (List.length rest < reads_fuel r st)%nat.
Proof. intros [-> ->]. unfold reads_fuel. lia. Qed.
Lemma ch_fuel_ok last tail rest r st : ch_inv last tail rest r st ->
  (List.length rest < reads_fuel r st)%nat.
Proof. unfold reads_fuel. intros [(rem & -> & HR)|(-> & -> & Hs)]; [apply rel_length in HR|cbn [List.length]]; lia. Qed.

Theorem limited_take body tail e fuel m n al acc : (0 < n)%nat -> (List.length body < fuel)%nat ->
  exists acc' en got rest r',
    take fixed fuel m n (BLimited (len body)) (mkS (body ++ tail) e) al acc = (acc', en, r', mkS (rest ++ tail) e, al) /\
    pieces_bytes acc' = pieces_bytes acc ++ got /\ body = got ++ rest /\
    (((len body < m)%N /\ en = EndEof /\ rest = []) \/ ((m <= len body)%N /\ en = EndCount /\ len got = m)) /\
    fst (body_drop fixed r' (mkS (rest ++ tail) e) al) = mkS tail e.
Proof.
  intros Hn Hf.
  destruct (pack_take (lim_step tail) (lim_drop tail) fuel m n al acc Hn (lim_inv_init tail body e) Hf)
    as (acc' & en & got & rest & r' & st' & E & Hp & Hb & HI & He & Hend & Hd).
  rewrite (lim_inv_state _ _ _ _ _ HI He) in *.
  exists acc', en, got, rest, r'. repeat split; auto.
  destruct Hend as [(H1 & H2 & H3 & _)|H]; [left|right]; auto.
Qed.

Theorem buffered_reads body st ns al ps en r' st' al' : all_pos ns ->
  reads fixed ns (BBuffered body) st al = (ps, en, r', st', al') ->
  st' = st /\ al' = al /\
  exists rest,
    body = List.concat ps ++ rest /\ r' = BBuffered rest /\ pieces_fit ns ps /\
    (en = None \/ en = Some REof) /\
    (en = None -> List.length ps = List.length ns) /\
    (en = Some REof -> rest = [] /\ List.concat ps = body /\ stable r' st') /\
    ((List.length body < List.length ns)%nat -> en = Some REof).
Proof.
  intros Hpos E. destruct st as [x e].
  destruct (pack_reads (buf_step (mkS x e)) (buf_drop _) Hpos (buf_inv_init _ body) E)
    as (rest & Hb & [Hr Hs] & _ & Hal & Hf & _ & H1 & H2 & H3 & H4).
  repeat split; auto. exists rest. repeat split; auto; now apply H3.
Qed.
Theorem buffered_drop body st al : body_drop fixed (BBuffered body) st al = (st, al).
Proof. reflexivity. Qed.

(* the upgrade reader (its reads: BodyFacts.upgrade_reads) *)
Theorem upgrade_drop st al : body_drop fixed BUpgrade st al = (st, al).
Proof. reflexivity. Qed.

(* r on (mkS x e) designates `body`, all of it is pending, and `tail` follows it. An invariant in
   the sense of BodyFacts.v describes the pair, and never the raw connection. *)
Definition whole_body (r : breader) (x : bytes) (e : bool) (body tail : bytes) : Prop :=
  exists Inv, step_spec tail Inv /\ drop_spec tail Inv /\ Inv body r (mkS x e) /\
              (List.length body <= List.length x)%nat /\
              forall rest r' st, Inv rest r' st -> r' <> BUpgrade.

Lemma whole_limited body x e : whole_body (BLimited (len body)) (body ++ x) e body x.
Proof.
  exists (lim_inv x). split; [apply lim_step|]. split; [apply lim_drop|]. split; [apply lim_inv_init|].
  split; [rewrite app_length; lia|]. intros rest r st [[-> _]|(_ & -> & _)]; discriminate.
Qed.

Lemma whole_chunked chs last x e : Forall chunk_ok chs -> size_line_ok last 0 ->
  whole_body (BChunked None false) (enc chs last x) e (payload chs) x.
Proof.
  intros Hc Hl. exists (ch_inv last x). split; [now apply ch_step|]. split; [now apply ch_drop|].
  split; [now apply ch_inv_init|]. split; [apply payload_le_enc|].
  intros rest r st [(rem & -> & _)|(_ & -> & _)]; discriminate.
Qed.

Section Whole.
Variables (r : breader) (x : bytes) (e : bool) (body tail : bytes).
Hypothesis W : whole_body r x e body tail.

(* C03 and C09: stop after any sequence of reads (none, some, all), drop: exactly at `tail` *)
Theorem whole_reads ns al ps en r' st' al' : all_pos ns ->
  reads fixed ns r (mkS x e) al = (ps, en, r', st', al') ->
  (exists rest,
     body = List.concat ps ++ rest /\ al' = al /\ pieces_fit ns ps /\
     (en = None \/ en = Some REof) /\
     (en = None -> List.length ps = List.length ns) /\
     (en = Some REof -> rest = [] /\ List.concat ps = body /\ st' = mkS tail e /\ stable r' st') /\
     ((List.length body < List.length ns)%nat -> en = Some REof)) /\
  fst (body_drop fixed r' st' al') = mkS tail e.
Proof.
  destruct W as (Inv & step & drop & init & _). intros Hpos E.
  destruct (pack_reads step drop Hpos init E) as (rest & Hb & _ & _ & Hal & Hf & Hd & Hend).
  split; [exists rest; auto|exact Hd].
Qed.

Theorem whole_take fuel m n al acc : (0 < n)%nat -> (List.length body < fuel)%nat ->
  exists acc' en got rest r' st',
    (take fixed fuel m n r (mkS x e) al acc = (acc', en, r', st', al) /\
     pieces_bytes acc' = pieces_bytes acc ++ got /\ body = got ++ rest /\
     (((len body < m)%N /\ en = EndEof /\ rest = [] /\ st' = mkS tail e /\ stable r' st') \/
      ((m <= len body)%N /\ en = EndCount /\ len got = m)) /\
     fst (body_drop fixed r' st' al) = mkS tail e) /\
    r' <> BUpgrade.
Proof.
  destruct W as (Inv & step & drop & init & _ & not_raw). intros Hn Hf.
  destruct (pack_take step drop fuel m n al acc Hn init Hf)
    as (acc' & en & got & rest & r' & st' & E & Hp & Hb & HI & _ & Hend).
  exists acc', en, got, rest, r', st'. split; [auto|exact (not_raw _ _ _ HI)].
Qed.
End Whole.
Arguments whole_reads {r x e body tail} W ns al {ps en r' st' al'}.
Arguments whole_take {r x e body tail} W fuel m n al acc.
