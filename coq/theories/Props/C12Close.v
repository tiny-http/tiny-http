(* Props/C12Close.v — C12, closing clause: "… once all received requests have been answered the server closes its
   sending side, so the client sees end-of-stream right after the last response. … when the client closes its sending
   side, the requests already received are still answered before the server closes."
   Statements only; model and proofs in Conc/ConnClose.v (the writer chain of Conc/SeqWriter.v wrapped with the
   ownership of the shared BufWriter/socket half: the builder's Arc handle lives in the connection thread, every
   response writer holds a clone; the last handle released flushes the BufWriter and calls shutdown(Write)).
   ALL label sequences, any number of requests and threads, any interleaving; `cstep … = None` means the label is
   not enabled (the calling thread blocks, or the operation does not exist any more); `true` = the repaired tree;
   `cap` = the BufWriter capacity (1024 in src/client.rs:63), every theorem holds for every capacity.
   Reading: writer i undropped = request i received and not yet answered/dropped; builder_alive = the connection
   thread still reads requests; `wire` = bytes the client can read; wr_closed = the client reads end-of-stream after them. *)
From Coq Require Import List Arith Bool Lia.
Import ListNotations.
From TH Require Import Conc.SeqWriter Conc.SeqWriterFacts Conc.ConnClose.

(* the wrapper only restricts the chain (New needs the builder): the run of the underlying chain is the run of
   Conc/SeqWriter.v on the same labels, so C01 / C06 (order, no interleaving, dropped requests) apply unchanged *)
Theorem c12_refines_writer_chain :
  forall (byte : Type) (cap : nat) (fixed : bool) (ls : list (clabel byte)) (s : cst byte),
    crun byte cap fixed (cinit byte) ls = Some s ->
    run byte fixed (init byte) (proj byte ls) = Some (sw byte s).
Proof. intros byte cap fixed ls s H. exact (crun_proj byte cap fixed ls _ s H). Qed.
Print Assumptions c12_refines_writer_chain.

(* the sending side is closed exactly when the connection thread has ended and every writer was dropped,
   i.e. when the Arc count is 0 *)
Theorem c12_closed_iff_all_handles_gone :
  forall (byte : Type) (cap : nat) (ls : list (clabel byte)) (s : cst byte),
    crun byte cap true (cinit byte) ls = Some s ->
    (wr_closed byte s = true <->
     builder_alive byte s = false /\
     forall i w, nth_error (ws byte (sw byte s)) i = Some w -> dropped byte w = true) /\
    (wr_closed byte s = true <-> handles byte s = 0).
Proof.
  intros byte cap ls s H. assert (Hr : creachable byte cap s) by (exists ls; exact H).
  split; [exact (closed_iff_all_handles_gone byte cap s Hr)|exact (closed_iff_no_handles byte cap s Hr)].
Qed.
Print Assumptions c12_closed_iff_all_handles_gone.

(* while the connection thread runs, or some received request is still unanswered, the sending side is open *)
Theorem c12_not_closed_while_unanswered :
  forall (byte : Type) (cap : nat) (ls : list (clabel byte)) (s : cst byte),
    crun byte cap true (cinit byte) ls = Some s ->
    builder_alive byte s = true \/
      (exists i w, nth_error (ws byte (sw byte s)) i = Some w /\ dropped byte w = false) ->
    wr_closed byte s = false.
Proof. intros byte cap ls s H. apply (not_closed_while_unanswered byte cap). exists ls; exact H. Qed.
Print Assumptions c12_not_closed_while_unanswered.

(* the close is final: afterwards NO label is enabled (no new writer, no write, flush or drop), so nothing can
   follow the end-of-stream; and along any run the state is open before every label that still executes *)
Theorem c12_close_is_final :
  forall (byte : Type) (cap : nat) (ls : list (clabel byte)) (s : cst byte) (l : clabel byte),
    crun byte cap true (cinit byte) ls = Some s -> wr_closed byte s = true ->
    cstep byte cap true s l = None.
Proof. intros byte cap ls s l H. apply (close_is_final byte cap). exists ls; exact H. Qed.
Print Assumptions c12_close_is_final.

Theorem c12_closed_only_at_end :
  forall (byte : Type) (cap : nat) (l1 : list (clabel byte)) (l : clabel byte) (l2 : list (clabel byte))
         (s1 s' : cst byte),
    crun byte cap true (cinit byte) l1 = Some s1 -> crun byte cap true (cinit byte) (l1 ++ l :: l2) = Some s' ->
    wr_closed byte s1 = false.
Proof.
  intros byte cap l1 l l2 s1 s'. apply (closed_only_at_end byte cap). apply creachable_init.
Qed.
Print Assumptions c12_closed_only_at_end.

(* at the close every byte of every response is on the socket, in request order, and the buffer is empty:
   end-of-stream comes right after the last response byte *)
Theorem c12_everything_on_the_wire_at_close :
  forall (byte : Type) (cap : nat) (ls : list (clabel byte)) (s : cst byte),
    crun byte cap true (cinit byte) ls = Some s -> wr_closed byte s = true ->
    wire byte s = concat (map (sent byte) (ws byte (sw byte s))) /\ buffered byte s = [] /\
    wire byte s = stream byte (sw byte s).
Proof. intros byte cap ls s H. apply (everything_on_the_wire_at_close byte cap). exists ls; exact H. Qed.
Print Assumptions c12_everything_on_the_wire_at_close.

(* the step that closes is a BuilderDrop or a DropW; it adds exactly the rest of the buffer to the wire *)
Theorem c12_closing_step :
  forall (byte : Type) (cap : nat) (ls : list (clabel byte)) (s s' : cst byte) (l : clabel byte),
    crun byte cap true (cinit byte) ls = Some s -> cstep byte cap true s l = Some s' ->
    wr_closed byte s = false -> wr_closed byte s' = true ->
    (l = BuilderDrop byte \/ exists i, l = CL byte (DropW byte i)) /\
    wire byte s' = wire byte s ++ buffered byte s /\
    wire byte s' = concat (map (sent byte) (ws byte (sw byte s'))) /\
    stream byte (sw byte s') = stream byte (sw byte s).
Proof. intros byte cap ls s s' l H. apply (closing_step byte cap). exists ls; exact H. Qed.
Print Assumptions c12_closing_step.

(* before the close: wire ++ buffer = the ordered concatenation of the response blocks, the buffer never exceeds
   the capacity, and bytes once on the wire stay there *)
Theorem c12_wire_then_buffer :
  forall (byte : Type) (cap : nat) (ls : list (clabel byte)) (s : cst byte),
    crun byte cap true (cinit byte) ls = Some s ->
    wire byte s ++ buffered byte s = concat (map (sent byte) (ws byte (sw byte s))) /\
    length (buffered byte s) <= cap.
Proof. intros byte cap ls s H. apply (wire_buffer_split byte cap). exists ls; exact H. Qed.
Print Assumptions c12_wire_then_buffer.

Theorem c12_wire_grows :
  forall (byte : Type) (cap : nat) (fixed : bool) (s s' : cst byte) (l : clabel byte),
    cstep byte cap fixed s l = Some s' -> exists x, wire byte s' = wire byte s ++ x.
Proof. intros byte cap fixed s s' l. apply wire_grows. Qed.
Print Assumptions c12_wire_grows.

Theorem c12_flush_puts_on_wire :
  forall (byte : Type) (cap : nat) (ls : list (clabel byte)) (s s' : cst byte) (i : nat),
    crun byte cap true (cinit byte) ls = Some s -> cstep byte cap true s (CL byte (Flush byte i)) = Some s' ->
    wire byte s' = stream byte (sw byte s') /\ buffered byte s' = [] /\
    wire byte s' = concat (map (sent byte) (ws byte (sw byte s'))).
Proof. intros byte cap ls s s' i H. apply (flush_puts_on_wire byte cap). exists ls; exact H. Qed.
Print Assumptions c12_flush_puts_on_wire.

(* the server does close: once the connection thread has ended, dropping the remaining writers in index order
   (drop_rest: nothing if none is left, else DropW k … DropW (n-1) for the least undropped k) is executable and
   ends closed with every byte handed to the sink on the wire *)
Theorem c12_close_eventually :
  forall (byte : Type) (cap : nat) (ls : list (clabel byte)) (s : cst byte),
    crun byte cap true (cinit byte) ls = Some s -> builder_alive byte s = false ->
    exists s', crun byte cap true s (drop_rest byte s) = Some s' /\ wr_closed byte s' = true /\
      wire byte s' = stream byte (sw byte s) /\ length (ws byte (sw byte s')) = length (ws byte (sw byte s)).
Proof. intros byte cap ls s H. apply (close_eventually byte cap). exists ls; exact H. Qed.
Print Assumptions c12_close_eventually.

(* the connection thread can always end (client closed, last request seen, refusal), whatever the writers do *)
Theorem c12_connection_thread_can_end :
  forall (byte : Type) (cap : nat) (fixed : bool) (s : cst byte),
    builder_alive byte s = true ->
    exists s', cstep byte cap fixed s (BuilderDrop byte) = Some s' /\ builder_alive byte s' = false /\
      sw byte s' = sw byte s.
Proof. exact builder_drop_enabled. Qed.
Print Assumptions c12_connection_thread_can_end.

(* the client closes its sending side (the connection thread ends) while requests k, k+1, … are unanswered:
   they are still answered — here each by arbitrary writes and flushes followed by the drop, in arrival order —
   nothing blocks, the state is open before every one of these labels, all the answers reach the socket, and the
   close comes with the last drop *)
Theorem c12_half_close_requests_still_answered :
  forall (byte : Type) (cap : nat) (ls : list (clabel byte)) (s : cst byte) (k : nat) (opss : list (list (op byte))),
    crun byte cap true (cinit byte) ls = Some s -> builder_alive byte s = false ->
    least_undropped byte (ws byte (sw byte s)) = Some k -> length (ws byte (sw byte s)) = k + length opss ->
    exists s', crun byte cap true s (map (CL byte) (arrival byte k opss)) = Some s' /\ wr_closed byte s' = true /\
      wire byte s' = stream byte (sw byte s) ++ concat (map (data byte) opss) /\
      wire byte s' = concat (map (sent byte) (ws byte (sw byte s'))) /\
      (forall s1 l1 l l2, map (CL byte) (arrival byte k opss) = l1 ++ l :: l2 ->
         crun byte cap true s l1 = Some s1 -> wr_closed byte s1 = false).
Proof. intros byte cap ls s k opss H. apply (answered_then_closed byte cap). exists ls; exact H. Qed.
Print Assumptions c12_half_close_requests_still_answered.

(* … and whatever the interleaving was so far, the oldest unanswered request can always be written to, flushed
   and dropped, before or after the connection thread has ended *)
Theorem c12_oldest_unanswered_never_blocked :
  forall (byte : Type) (cap : nat) (ls : list (clabel byte)) (s : cst byte) (k : nat),
    crun byte cap true (cinit byte) ls = Some s -> least_undropped byte (ws byte (sw byte s)) = Some k ->
    wr_closed byte s = false /\
    (forall d, exists s', cstep byte cap true s (CL byte (Write byte k d)) = Some s') /\
    (exists s', cstep byte cap true s (CL byte (Flush byte k)) = Some s') /\
    (exists s', cstep byte cap true s (CL byte (DropW byte k)) = Some s').
Proof. intros byte cap ls s k H. apply (half_closed_still_answerable byte cap). exists ls; exact H. Qed.
Print Assumptions c12_oldest_unanswered_never_blocked.

(* non-vacuity; bytes = nat; ctrace lists (closed, wire, buffer) after each label *)
Local Notation N_ := (CL nat (New nat)).
Local Notation W_ i d := (CL nat (Write nat i d)).
Local Notation F_ i := (CL nat (Flush nat i)).
Local Notation D_ i := (CL nat (DropW nat i)).
Local Notation B_ := (BuilderDrop nat).

(* two requests; the thread answering request 1 comes first and is blocked; request 0 is answered; the connection
   thread ends in between; request 1 is answered: the close happens exactly at the last DropW, with the buffered
   rest of response 1 flushed (capacity 4: [3;4;5] stays in the buffer until then) *)
Example c12_example_out_of_order_blocked :
  crun nat 4 true (cinit nat) [N_; N_; W_ 1 [3; 4; 5]] = None /\
  crun nat 4 true (cinit nat) [N_; N_; D_ 1] = None.
Proof. vm_compute. split; reflexivity. Qed.

Example c12_example_close_at_last_drop :
  ctrace nat 4 true (cinit nat) [N_; N_; W_ 0 [1; 2]; B_; F_ 0; D_ 0; W_ 1 [3; 4; 5]; D_ 1] =
    [(false, [], []); (false, [], []); (false, [], [1; 2]); (false, [], [1; 2]); (false, [1; 2], []);
     (false, [1; 2], []); (false, [1; 2], [3; 4; 5]); (true, [1; 2; 3; 4; 5], [])].
Proof. vm_compute. reflexivity. Qed.

(* the same with the real capacity: nothing reaches the socket before the explicit flush / the close *)
Example c12_example_close_at_last_drop_1024 :
  ctrace nat 1024 true (cinit nat) [N_; N_; W_ 0 [1; 2]; B_; D_ 0; W_ 1 [3; 4; 5]; D_ 1] =
    [(false, [], []); (false, [], []); (false, [], [1; 2]); (false, [], [1; 2]);
     (false, [], [1; 2]); (false, [], [1; 2; 3; 4; 5]); (true, [1; 2; 3; 4; 5], [])].
Proof. vm_compute. reflexivity. Qed.

(* all requests answered first, the connection thread ends last (keep-alive connection the client closes later):
   the close happens at BuilderDrop *)
Example c12_example_close_at_builder_drop :
  ctrace nat 4 true (cinit nat) [N_; W_ 0 [1]; D_ 0; N_; W_ 1 [2]; D_ 1; B_] =
    [(false, [], []); (false, [], [1]); (false, [], [1]); (false, [], [1]); (false, [], [1; 2]);
     (false, [], [1; 2]); (true, [1; 2], [])].
Proof. vm_compute. reflexivity. Qed.

(* after the close nothing is enabled; after BuilderDrop no new writer *)
Example c12_example_nothing_after_close :
  crun nat 4 true (cinit nat) [N_; W_ 0 [1]; B_; D_ 0; N_] = None /\
  crun nat 4 true (cinit nat) [N_; W_ 0 [1]; B_; D_ 0; W_ 0 [2]] = None /\
  crun nat 4 true (cinit nat) [N_; W_ 0 [1]; B_; D_ 0; B_] = None /\
  crun nat 4 true (cinit nat) [N_; B_; N_] = None.
Proof. vm_compute. repeat split. Qed.

(* the BufWriter rules (capacity 4): a write that does not fit flushes first; a write >= capacity bypasses the
   buffer (after flushing it); a write that fills the buffer exactly stays buffered *)
Example c12_example_bufwriter :
  ctrace nat 4 true (cinit nat) [N_; W_ 0 [1; 2; 3]; W_ 0 [4; 5]; W_ 0 [6; 7]; W_ 0 [8; 9; 10; 11; 12]; W_ 0 [13]] =
    [(false, [], []); (false, [], [1; 2; 3]); (false, [1; 2; 3], [4; 5]); (false, [1; 2; 3], [4; 5; 6; 7]);
     (false, [1; 2; 3; 4; 5; 6; 7; 8; 9; 10; 11; 12], []); (false, [1; 2; 3; 4; 5; 6; 7; 8; 9; 10; 11; 12], [13])].
Proof. vm_compute. reflexivity. Qed.

(* drop_rest: three requests received, one partly answered, the connection thread ended: dropping 0, 1, 2 closes *)
Example c12_example_drop_rest :
  match crun nat 4 true (cinit nat) [N_; N_; N_; W_ 0 [1]; B_] with
  | Some s => builder_alive nat s = false /\ drop_rest nat s = [D_ 0; D_ 1; D_ 2] /\
              ctrace nat 4 true s (drop_rest nat s) = [(false, [], [1]); (false, [], [1]); (true, [1], [])]
  | None => False
  end.
Proof. vm_compute. repeat split. Qed.

(* the hypotheses of c12_half_close_requests_still_answered on a concrete state: request 0 answered, requests 1
   and 2 received, the client half-closes; 1 is answered by two writes and a flush, 2 by one write *)
Example c12_example_half_close :
  match crun nat 4 true (cinit nat) [N_; N_; W_ 0 [1]; D_ 0; N_; B_] with
  | Some s =>
      let opss := [[OWrite nat [2]; OFlush nat; OWrite nat [3]]; [OWrite nat [4]]] in
      builder_alive nat s = false /\ least_undropped nat (ws nat (sw nat s)) = Some 1 /\
      length (ws nat (sw nat s)) = 1 + length opss /\
      ctrace nat 4 true s (map (CL nat) (arrival nat 1 opss)) =
        [(false, [], [1; 2]); (false, [1; 2], []); (false, [1; 2], [3]); (false, [1; 2], [3]);
         (false, [1; 2], [3; 4]); (true, [1; 2; 3; 4], [])]
  | None => False
  end.
Proof. vm_compute. repeat split. Qed.
