(* Props/C03.v — the body readable from a request is exactly the byte sequence its framing
   designates; reading ends with end-of-stream exactly at that boundary, whatever buffer sizes the
   application reads with. BODY SIDE: the statements are about the reader a request owns
   (Http/Body.v) on the stream as `serve_loop` hands it over, for the repaired tree (cfg = fixed).
   Statements with short derivations; what they rest on is in Http/BodyFacts.v, ChunkedFacts.v,
   ChunkedReader.v, FramingBodyFacts.v, C03Facts.v.

   Vocabulary (Http/BodyFacts.v):
     reads c ns r st al = (ps, en, r', st', al')
         the application reads with the buffer sizes ns in turn; ps = the pieces returned as data;
         en = None: all of ns used; en = Some x: x is the first result that was not data.
     pieces_fit ns ps   every piece is non-empty and no longer than the buffer it was read into
     stable r st        every further read returns REof and changes neither reader nor stream
   (Http/ChunkedFacts.v, ChunkedReader.v):
     size_line_ok sl n  sl is a chunk-size line (without CRLF) the decoder accepts as announcing n:
                        blanks, optional '+', hex digits in either case with any number of leading
                        zeros, value n < 2^64, blanks, optional ";extension" free of CR
     enc chs last tail  the chunks, the last-chunk line, CRLF (no trailers), then `tail` *)
From TH Require Import Base.Bytes Http.Response Http.Request Http.Body Http.Serve.
From TH Require Import Http.BodyFacts Http.ChunkedFacts Http.ChunkedReader Http.FramingBodyFacts Http.C03Facts.
Open Scope char_scope.

(* Content-Length: N (N > 1024 or Expect): the length-limited reader
   For ANY sequence of buffer sizes: the pieces are a prefix of the next N bytes, the connection
   stands exactly after the bytes delivered, a read never fails or blocks while the body is
   pending; end-of-stream comes exactly when all N bytes were delivered, with the connection
   exactly at the first byte after the body, and it is final; it does come once there are more
   reads than body bytes. *)
Theorem c03_limited_reads :
  forall body tail e ns al ps en r' st' al', all_pos ns ->
    reads fixed ns (BLimited (len body)) (mkS (body ++ tail) e) al = (ps, en, r', st', al') ->
    exists rest,
      body = List.concat ps ++ rest /\ st' = mkS (rest ++ tail) e /\ al' = al /\ pieces_fit ns ps /\
      (r' = BLimited (len rest) \/ (rest = [] /\ r' = BEmpty)) /\
      (en = None \/ en = Some REof) /\
      (en = None -> List.length ps = List.length ns) /\
      (en = Some REof -> rest = [] /\ List.concat ps = body /\ st' = mkS tail e /\ stable r' st') /\
      ((List.length body < List.length ns)%nat -> en = Some REof).
Proof.
  intros body tail e ns al ps en r' st' al' Hpos E.
  destruct (pack_reads (lim_step tail) (lim_drop tail) Hpos (lim_inv_init tail body e) E)
    as (rest & Hb & HI & He & Hal & Hf & _ & Hend).
  exists rest. split; [exact Hb|]. split; [exact (lim_inv_state _ _ _ _ _ HI He)|].
  split; [exact Hal|]. split; [exact Hf|]. split; [|exact Hend].
  destruct HI as [[Hr _]|(Hr1 & Hr2 & _)]; auto.
Qed.
Print Assumptions c03_limited_reads.

(* the handler loop "obtain up to m bytes with an n-byte buffer": exactly the first min(m, N) body
   bytes; end-of-stream is reported iff more than N were asked for; fuel N+1 is enough (Serve.v
   passes |pending bytes|+1) *)
Theorem c03_limited_take :
  forall body tail e fuel m n al acc, (0 < n)%nat -> (List.length body < fuel)%nat ->
    exists acc' en got rest r',
      take fixed fuel m n (BLimited (len body)) (mkS (body ++ tail) e) al acc = (acc', en, r', mkS (rest ++ tail) e, al) /\
      pieces_bytes acc' = pieces_bytes acc ++ got /\ body = got ++ rest /\
      (((len body < m)%N /\ en = EndEof /\ rest = []) \/ ((m <= len body)%N /\ en = EndCount /\ len got = m)) /\
      fst (body_drop fixed r' (mkS (rest ++ tail) e) al) = mkS tail e.
Proof. exact limited_take. Qed.
Print Assumptions c03_limited_take.

(* Content-Length: N <= 1024 without Expect: the pre-read body
   Same, and the connection is not touched at all. *)
Theorem c03_buffered_reads :
  forall body st ns al ps en r' st' al', all_pos ns ->
    reads fixed ns (BBuffered body) st al = (ps, en, r', st', al') ->
    st' = st /\ al' = al /\
    exists rest,
      body = List.concat ps ++ rest /\ r' = BBuffered rest /\ pieces_fit ns ps /\
      (en = None \/ en = Some REof) /\
      (en = None -> List.length ps = List.length ns) /\
      (en = Some REof -> rest = [] /\ List.concat ps = body /\ stable r' st') /\
      ((List.length body < List.length ns)%nat -> en = Some REof).
Proof. exact buffered_reads. Qed.
Print Assumptions c03_buffered_reads.

Theorem c03_buffered_take :
  forall body st fuel m n al acc, (0 < n)%nat -> (List.length body < fuel)%nat ->
    exists acc' en got rest,
      take fixed fuel m n (BBuffered body) st al acc = (acc', en, BBuffered rest, st, al) /\
      pieces_bytes acc' = pieces_bytes acc ++ got /\ body = got ++ rest /\
      (((len body < m)%N /\ en = EndEof /\ rest = []) \/ ((m <= len body)%N /\ en = EndCount /\ len got = m)).
Proof.
  intros body st fuel m n al acc Hn Hf. destruct st as [x e].
  destruct (pack_take (buf_step (mkS x e)) (buf_drop _) fuel m n al acc Hn (buf_inv_init _ body) Hf)
    as (acc' & en & got & rest & r' & st' & E & Hp & Hb & [-> ->] & He & Hend & Hd).
  exists acc', en, got, rest. repeat split; auto.
  destruct Hend as [(H1 & H2 & H3 & _)|H]; [left|right]; auto.
Qed.
Print Assumptions c03_buffered_take.

(* Transfer-Encoding: the chunked reader. On every accepted size line the decoder obtains exactly
   the announced size and consumes exactly the line and its CRLF *)
Theorem c03_chunk_size_line :
  forall sl n rest e, size_line_ok sl n ->
    read_chunk_size (mkS (sl ++ CRLF ++ rest) e) = (DOk n, mkS rest e).
Proof. exact read_chunk_size_ok. Qed.
Print Assumptions c03_chunk_size_line.

(* ... and the decoder accepts no other lines: size_line_ok is exactly what the code accepts *)
Theorem c03_chunk_size_line_complete :
  forall sl rest e n st', no_cr sl = true ->
    read_chunk_size (mkS (sl ++ CRLF ++ rest) e) = (DOk n, st') ->
    size_line_ok sl n /\ st' = mkS rest e.
Proof. exact read_chunk_size_complete. Qed.
Print Assumptions c03_chunk_size_line_complete.

(* the canonical lower-case rendering of any size below 2^64 is an accepted line *)
Theorem c03_size_line_canonical : forall n, (n < USIZE_BOUND)%N -> size_line_ok (print_hex n) n.
Proof.
  intros n Hn.
  destruct (proj1 (RadixFacts.parse_some _ _ _ _ _) (RadixFacts.parse_hex_print n Hn)) as (Hne & Hv & _).
  exists [], [], (print_hex n), [], []. rewrite !app_nil_r. cbn [app forallb]. repeat split; auto.
Qed.
Print Assumptions c03_size_line_canonical.

(* For ANY chunking with accepted size lines and ANY sequence of buffer sizes: the pieces are a
   prefix of the concatenated payloads; no read fails or blocks; end-of-stream comes exactly when
   all payload bytes were delivered, with the connection exactly at the first byte after the
   terminating CRLF, and it is final. (The finality is the FusedReader around the decoder — reader
   BEmpty in the model: the decoder itself has no terminal state and would read the next request
   as a chunk-size line, see c03_example_unfused_decoder below.) *)
Theorem c03_chunked_reads :
  forall chs last tail e, Forall chunk_ok chs -> size_line_ok last 0 ->
  forall ns al ps en r' st' al', all_pos ns ->
    reads fixed ns (BChunked None false) (mkS (enc chs last tail) e) al = (ps, en, r', st', al') ->
    exists rest,
      payload chs = List.concat ps ++ rest /\ al' = al /\ pieces_fit ns ps /\
      (en = None \/ en = Some REof) /\
      (en = None -> List.length ps = List.length ns) /\
      (en = Some REof -> rest = [] /\ List.concat ps = payload chs /\ st' = mkS tail e /\ stable r' st') /\
      ((List.length (payload chs) < List.length ns)%nat -> en = Some REof).
Proof.
  intros chs last tail e Hc Hl ns al ps en r' st' al' Hpos E.
  exact (proj1 (whole_reads (whole_chunked chs last tail e Hc Hl) ns al Hpos E)).
Qed.
Print Assumptions c03_chunked_reads.

Theorem c03_chunked_take :
  forall chs last tail e, Forall chunk_ok chs -> size_line_ok last 0 ->
  forall fuel m n al acc, (0 < n)%nat -> (List.length (payload chs) < fuel)%nat ->
    exists acc' en got rest r' st',
      take fixed fuel m n (BChunked None false) (mkS (enc chs last tail) e) al acc = (acc', en, r', st', al) /\
      pieces_bytes acc' = pieces_bytes acc ++ got /\ payload chs = got ++ rest /\
      (((len (payload chs) < m)%N /\ en = EndEof /\ rest = [] /\ st' = mkS tail e /\ stable r' st') \/
       ((m <= len (payload chs))%N /\ en = EndCount /\ len got = m)) /\
      fst (body_drop fixed r' st' al) = mkS tail e.
Proof.
  intros chs last tail e Hc Hl fuel m n al acc Hn Hf.
  destruct (whole_take (whole_chunked chs last tail e Hc Hl) fuel m n al acc Hn Hf) as (acc' & en & got & rest & r' & st' & H & _).
  now exists acc', en, got, rest, r', st'.
Qed.
Print Assumptions c03_chunked_take.

(* decode . encode = id: reading everything, with the fuel the handler loop of Serve.v uses *)
Theorem c03_chunked_decode_encode :
  forall chs last tail e, Forall chunk_ok chs -> size_line_ok last 0 ->
  forall n al, (0 < n)%nat -> (len (payload chs) < ALL)%N ->
    exists acc' r',
      take fixed (S (List.length (sbytes (mkS (enc chs last tail) e)) + 0)) ALL n
           (BChunked None false) (mkS (enc chs last tail) e) al [] = (acc', EndEof, r', mkS tail e, al) /\
      pieces_bytes acc' = payload chs /\ stable r' (mkS tail e).
Proof.
  intros chs last tail e Hc Hl n al Hn Hlen.
  destruct (whole_take (whole_chunked chs last tail e Hc Hl) _ ALL n al [] Hn (chunked_take_fuel chs last tail))
    as (acc' & en & got & rest & r' & st' & (E & Hp & Hb & Hend & _) & _).
  destruct Hend as [(_ & -> & -> & -> & Hs)|(H & _)]; [|now apply N.lt_nge in Hlen].
  exists acc', r'. rewrite app_nil_r in Hb. subst got. auto.
Qed.
Print Assumptions c03_chunked_decode_encode.

(* protocol upgrade: the rest of the connection, verbatim *)
Theorem c03_upgrade_reads :
  forall x e ns al ps en r' st' al', all_pos ns ->
    reads fixed ns BUpgrade (mkS x e) al = (ps, en, r', st', al') ->
    r' = BUpgrade /\ al' = al /\ x = List.concat ps ++ sbytes st' /\ seof st' = e /\ pieces_fit ns ps /\
    ((en = None /\ List.length ps = List.length ns) \/
     (sbytes st' = [] /\ List.concat ps = x /\ en = Some (if e then REof else RBlock))).
Proof. exact upgrade_reads. Qed.
Print Assumptions c03_upgrade_reads.

(* which reader, which declared length (request.rs:170-301, `new_request`) *)
(* everything `framing fixed` decides when it accepts a request *)
Theorem c03_framing :
  forall hs k bl ex, framing fixed hs = FrOk k bl ex ->
    exists cl0 : option N,
      match header_value "Content-Length" hs with
      | None => cl0 = None
      | Some v => v <> [] /\ forallb is_digit v = true /\ parse_dec v = cl0 /\ cl0 <> None
      end /\
      bl = match header_value "Transfer-Encoding" hs with Some _ => None | None => cl0 end /\
      ex = match header_value "Expect" hs with Some _ => true | None => false end /\
      k = kind_of (wants_upgrade hs) bl
            match header_value "Transfer-Encoding" hs with Some _ => true | None => false end ex.
Proof. exact framing_fixed_char. Qed.
Print Assumptions c03_framing.

(* a transfer coding takes precedence over any Content-Length *)
Theorem c03_te_beats_cl :
  forall hs te k bl ex, header_value "Transfer-Encoding" hs = Some te ->
    framing fixed hs = FrOk k bl ex ->
    bl = None /\ k = if wants_upgrade hs then KUpgrade else KChunked.
Proof.
  intros hs te k bl ex Hte H. apply framing_fixed_char in H as (cl0 & _ & Hbl & _ & Hk). rewrite Hte in *. subst bl.
  split; [reflexivity|]. subst k. unfold kind_of. reflexivity.
Qed.
Print Assumptions c03_te_beats_cl.

(* the declared length is reported when there is one *)
Theorem c03_body_length :
  forall hs N k bl ex, (N < USIZE_BOUND)%N -> header_value "Transfer-Encoding" hs = None ->
    header_value "Content-Length" hs = Some (print_dec N) -> framing fixed hs = FrOk k bl ex ->
    bl = Some N /\ k = kind_of (wants_upgrade hs) (Some N) false ex.
Proof.
  intros hs N k bl ex Hn Hte Hcl H. destruct (framing_cl _ _ _ _ _ Hte Hcl H) as (n' & Hp & _ & _ & Hbl & Hk).
  rewrite RadixFacts.parse_dec_print in Hp by exact Hn. inversion Hp; subst n'. auto.
Qed.
Print Assumptions c03_body_length.

(* ... for every accepted spelling (leading zeros) *)
Theorem c03_body_length_any :
  forall hs v k bl ex, header_value "Transfer-Encoding" hs = None ->
    header_value "Content-Length" hs = Some v -> framing fixed hs = FrOk k bl ex ->
    exists n, parse_dec v = Some n /\ v <> [] /\ forallb is_digit v = true /\ bl = Some n /\
              k = kind_of (wants_upgrade hs) (Some n) false ex.
Proof. exact framing_cl. Qed.
Print Assumptions c03_body_length_any.

Theorem c03_no_framing_empty :
  forall hs k bl ex, header_value "Transfer-Encoding" hs = None ->
    header_value "Content-Length" hs = None -> framing fixed hs = FrOk k bl ex ->
    bl = None /\ k = if wants_upgrade hs then KUpgrade else KEmpty.
Proof.
  intros hs k bl ex Hte Hcl H. apply framing_fixed_char in H as (cl0 & Hc & Hbl & _ & Hk). rewrite Hte, Hcl in *.
  subst cl0 bl. split; [reflexivity|]. subst k. reflexivity.
Qed.
Print Assumptions c03_no_framing_empty.

Theorem c03_upgrade_kind :
  forall hs k bl ex, wants_upgrade hs = true -> framing fixed hs = FrOk k bl ex -> k = KUpgrade.
Proof. intros hs k bl ex Hu H. apply framing_fixed_char in H as (cl0 & _ & _ & _ & Hk). rewrite Hu in Hk. exact Hk. Qed.
Print Assumptions c03_upgrade_kind.

(* requests without Expect and with a valid or no Content-Length are accepted *)
Theorem c03_framing_accepts :
  forall hs, header_value "Expect" hs = None ->
    match header_value "Content-Length" hs with
    | None => True
    | Some v => v <> [] /\ forallb is_digit v = true /\ parse_dec v <> None
    end ->
    exists k bl, framing fixed hs = FrOk k bl false.
Proof.
  intros hs Hex Hcl. rewrite (framing_fixed_rest hs Hcl). unfold framing_rest, expectation. rewrite Hex. eauto.
Qed.
Print Assumptions c03_framing_accepts.

(* non-vacuity: a chunked body in three chunks — plain, upper-case size with leading zeros and blanks, with an
   extension — a last-chunk line with an extension, followed by the next request *)
Definition c03_chunks : list chunk :=
  [ (s "5", s "hello");
    (s " 000A ", s ", chunked ");
    (s "+6;name=value", s "world!") ].
Definition c03_last : bytes := s "000;end".
Definition c03_tail : bytes := s "GET /next HTTP/1.1" ++ CRLF ++ CRLF.
Definition c03_wire : bytes := enc c03_chunks c03_last c03_tail.

Example c03_example_wire :
  c03_wire = s "5" ++ CRLF ++ s "hello" ++ CRLF ++ s " 000A " ++ CRLF ++ s ", chunked " ++ CRLF ++
             s "+6;name=value" ++ CRLF ++ s "world!" ++ CRLF ++ s "000;end" ++ CRLF ++ CRLF ++ c03_tail
  /\ payload c03_chunks = s "hello, chunked world!".
Proof. split; reflexivity. Qed.

Example c03_example_chunks_ok : Forall chunk_ok c03_chunks /\ size_line_ok c03_last 0.
Proof.
  split; [repeat constructor; try discriminate|].
  - exists [], [], (s "5"), [], []. vm_compute. repeat split; auto; discriminate.
  - exists [" "], [], (s "000A"), [" "], []. vm_compute. repeat split; auto; discriminate.
  - exists [], ["+"], (s "6"), [], (s ";name=value"). vm_compute. repeat split; auto; try discriminate.
    right. eexists. split; reflexivity.
  - exists [], [], (s "000"), [], (s ";end"). vm_compute. repeat split; auto; try discriminate.
    right. eexists. split; reflexivity.
Qed.

Example c03_example_chunked_reads :
  reads fixed [1; 2; 1024; 7; 1; 3; 9; 5]%nat (BChunked None false) (mkS c03_wire false) [] =
  ([s "h"; s "el"; s "lo"; s ", chunk"; s "e"; s "d "; s "world!"], Some REof, BEmpty, mkS c03_tail false, []).
Proof. vm_compute. reflexivity. Qed.

Example c03_example_chunked_take :
  let '(acc, en, r, st, al) := take fixed (S (List.length c03_wire + 0)) ALL 4 (BChunked None false) (mkS c03_wire true) [] [] in
  (pieces_bytes acc, en, r, st) = (s "hello, chunked world!", EndEof, BEmpty, mkS c03_tail true).
Proof. vm_compute. reflexivity. Qed.

(* without the fuse the decoder would go on: it reads the next request line as a chunk-size line *)
Example c03_example_unfused_decoder :
  dec_read 16 None (mkS c03_tail false) = (RErr, None, mkS CRLF false).
Proof. vm_compute. reflexivity. Qed.

Example c03_example_limited_reads :
  reads fixed [2; 1; 5; 5]%nat (BLimited 6) (mkS (s "abcdef" ++ c03_tail) false) [] =
  ([s "ab"; s "c"; s "def"], Some REof, BEmpty, mkS c03_tail false, []).
Proof. vm_compute. reflexivity. Qed.

Example c03_example_buffered_reads :
  reads fixed [4; 4; 4]%nat (BBuffered (s "abcdef")) (mkS c03_tail false) [] =
  ([s "abcd"; s "ef"], Some REof, BBuffered [], mkS c03_tail false, []).
Proof. vm_compute. reflexivity. Qed.

Example c03_example_upgrade_reads :
  reads fixed [4; 100; 4]%nat BUpgrade (mkS (s "raw bytes") true) [] =
  ([s "raw "; s "bytes"], Some REof, BUpgrade, mkS [] true, []).
Proof. vm_compute. reflexivity. Qed.

Example c03_example_framing :
  framing fixed [mkH (s "Content-Length") (s "7"); mkH (s "Transfer-Encoding") (s "chunked")] = FrOk KChunked None false /\
  framing fixed [mkH (s "Content-Length") (s "2000")] = FrOk (KLimited 2000) (Some 2000%N) false /\
  framing fixed [mkH (s "content-length") (s "007")] = FrOk (KBuffered 7) (Some 7%N) false /\
  framing fixed [mkH (s "Content-Length") (s "7"); mkH (s "Expect") (s "100-continue")] = FrOk (KLimited 7) (Some 7%N) true /\
  framing fixed [mkH (s "Host") (s "x")] = FrOk KEmpty None false /\
  framing fixed [mkH (s "Connection") (s "keep-alive, Upgrade"); mkH (s "Content-Length") (s "7")] = FrOk KUpgrade (Some 7%N) false.
Proof. vm_compute. repeat split; reflexivity. Qed.
