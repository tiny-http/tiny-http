(* Conc/ComposeFacts.v — composition of the two models of one connection:
   (1) the sequential-writer chain (Conc/SeqWriter.v, all interleavings of the threads that answer), and
   (2) the sequential serve model (Http/Serve.v) whose wire is a concatenation of segments (Http/WireFacts.v).
   Every segment is written through exactly one writer of the chain, taken in order by the connection thread
   (src/client.rs: `self.sink.next()` once per parsed request, once per 400/417 refusal; the 408 of client.rs:211
   likewise, but `serve` does not model the time-out).
   The hypotheses on a label sequence `ls`, for a list `blocks` with one block per writer (the premises of
   `any_interleaving_blocks`):
     (a) run true init ls = Some s                                     the interleaving is executable;
     (b) length (filter is_new ls) = length blocks                     one writer per block;
     (c) forall i < length blocks, writes_of i ls = nth i blocks []    writer i wrote exactly block i, in any pieces,
                                                                       at any moments.
   Generic in the byte type and the list of blocks; at the end `byte := ascii`, `blocks := map (seg_bytes date) segs`. *)
From Coq Require Import List Arith Lia Ascii.
Import ListNotations.
From TH Require Import Conc.SeqWriter Conc.SeqWriterFacts Conc.ComposeThreads.

Local Arguments dropped {byte}.
Local Arguments sent {byte}.
Local Arguments ws {byte}.
Local Arguments stream {byte}.
Local Arguments New {byte}.
Local Arguments step {byte}.
Local Arguments run {byte}.
Local Arguments init {byte}.
Local Arguments Inv {byte}.
Local Arguments writes_of {byte}.
Local Arguments sent_at {byte}.
Local Arguments is_new {byte}.
Local Arguments OWrite {byte}.
Local Arguments data {byte}.
Local Arguments arrival {byte}.
Local Arguments least_undropped {byte}.

Lemma map_nth_seq {A} (l : list A) d : map (fun i => nth i l d) (seq 0 (length l)) = l.
Proof.
  rewrite <- (map_as_seq (fun x => x) (fun i => nth i l d) l); [apply map_id|].
  intros i x H. symmetry. now apply nth_error_nth.
Qed.

Lemma map_via_nth {A B} (f : A -> B) (l : list A) d n : length l = n ->
  map f l = map (fun i => f (nth i l d)) (seq 0 n).
Proof. intros <-. rewrite <- (map_nth_seq l d) at 1. apply map_map. Qed.

Lemma nth_map_seq {B} (f : nat -> B) k m j d : j < m -> nth j (map f (seq k m)) d = f (k + j).
Proof.
  intros H. rewrite (nth_indep _ d (f 0)) by (rewrite map_length, seq_length; exact H).
  rewrite map_nth, seq_nth by exact H. reflexivity.
Qed.

Lemma map_eq_length {A B C} (f : A -> C) (g : B -> C) l l' : map f l = map g l' -> length l = length l'.
Proof. intros H. now rewrite <- (map_length f), H, map_length. Qed.

Lemma concat_skipn_nth {A} (l : list (list A)) : forall k,
  concat (skipn k l) = nth k l [] ++ concat (skipn (S k) l).
Proof. induction l as [|a l IH]; intros [|k]; cbn; auto. apply IH. Qed.

Lemma map_firstn_nth {A B} (f : A -> B) d : forall k (l : list A) (l' : list B), k <= length l -> k <= length l' ->
  (forall j x, j < k -> nth_error l j = Some x -> f x = nth j l' d) -> map f (firstn k l) = firstn k l'.
Proof.
  induction k as [|k IH]; [reflexivity|]. intros [|a l] [|b l'] Hl Hl' H; cbn in *; try lia.
  f_equal; [exact (H 0 a (Nat.lt_0_succ k) eq_refl)|]. apply IH; try lia. intros j x Hj. apply (H (S j)). lia.
Qed.

Section Gen.
Variable byte : Type.
Notation bytes := (list byte).
Notation wr := (SeqWriter.wr byte).
Notation st := (SeqWriter.st byte).
Notation label := (SeqWriter.label byte).
Notation op := (SeqWriterFacts.op byte).
Implicit Types (s : st) (w : wr) (ls : list label) (blocks : list bytes).

Lemma run_news_count ls s : run true init ls = Some s -> length (ws s) = length (filter is_new ls).
Proof. intros H. exact (run_length byte true ls init s H). Qed.

Lemma any_interleaving_blocks blocks ls s :
  run true init ls = Some s ->
  length (filter is_new ls) = length blocks ->
  (forall i, i < length blocks -> writes_of i ls = nth i blocks []) ->
  stream s = concat blocks.
Proof.
  intros H Hn Hw. rewrite (stream_is_per_writer_data byte ls s H), (run_news_count ls s H), Hn.
  rewrite <- (map_nth_seq blocks []) at 2. f_equal. apply map_ext_in. intros i Hi. apply in_seq in Hi. apply Hw. lia.
Qed.

(* for every executable shuffle of the connection thread's `New`s with the answering threads' programs *)
Theorem any_thread_interleaving (opss : list (list op)) ls cs :
  interleaving (repeat New (length opss) :: progs byte 0 opss) ls ->
  run true init ls = Some cs ->
  stream cs = concat (map data opss).
Proof.
  intros Hi Hrun. destruct (thread_interleaving_hyps byte opss ls Hi) as (Hn & Hw).
  apply (any_interleaving_blocks (map data opss) ls cs Hrun).
  - now rewrite map_length.
  - intros i _. apply Hw.
Qed.

Lemma dropped_profile s : Inv s ->
  exists k, k <= length (ws s) /\
    (forall j wj, nth_error (ws s) j = Some wj -> dropped wj = (j <? k)).
Proof.
  intros HI. destruct (least_undropped (ws s)) as [k|] eqn:El.
  - exists k. split; [|exact (least_undropped_profile byte s k HI El)].
    apply Nat.lt_le_incl. exact (proj1 (least_undropped_at byte _ _ El)).
  - exists (length (ws s)). split; [lia|]. intros j wj Hn.
    rewrite (least_undropped_none byte _ El j wj Hn). symmetry. apply Nat.ltb_lt. apply nth_error_Some. congruence.
Qed.

(* s may be an intermediate state of an execution in which writer i is to write blocks[i] *)
Definition consistent blocks s : Prop :=
  forall i w, nth_error (ws s) i = Some w ->
    (exists rest, nth i blocks [] = sent w ++ rest) /\ (dropped w = true -> sent w = nth i blocks []).

(* every writer exists already: each remaining writer writes the rest of its block in one piece, in index order *)
Lemma partial_run_completes_eq blocks ls0 s :
  run true init ls0 = Some s -> length (ws s) = length blocks -> consistent blocks s ->
  exists ls1 s', run true s ls1 = Some s' /\ stream s' = concat blocks /\ least_undropped (ws s') = None /\
    length (filter is_new (ls0 ++ ls1)) = length blocks /\
    forall i, i < length blocks -> writes_of i (ls0 ++ ls1) = nth i blocks [].
Proof.
  intros H Hlen Hc.
  pose proof (run_init_inv byte ls0 s H) as HI.
  destruct (dropped_profile s HI) as (k & Hk & Hprof).
  set (n := length (ws s)) in *.
  set (opss := map (fun i => [OWrite (skipn (length (sent_at s i)) (nth i blocks []))]) (seq k (n - k))).
  assert (Hol : length opss = n - k) by (unfold opss; now rewrite map_length, seq_length).
  destruct (arrival_runs byte opss k s ltac:(fold n; lia) Hprof) as (s' & Hrun & _ & Hl' & Hall & _).
  assert (Hw : forall i, i < length blocks -> writes_of i (ls0 ++ arrival k opss) = nth i blocks []).
  { intros i Hi. rewrite writes_of_app, writes_of_arrival.
    destruct (nth_error (ws s) i) as [w|] eqn:Ei; [|apply nth_error_None in Ei; fold n in Ei; lia].
    destruct (Hc i w Ei) as ((rest & Hrest) & Hdone). pose proof (Hprof i w Ei) as Hd.
    rewrite <- (sent_is_writes byte true ls0 s i w H Ei).
    destruct (Nat.leb_spec k i) as [Hki|Hki].
    - unfold opss. rewrite nth_map_seq by lia. replace (k + (i - k)) with i by lia.
      unfold data, sent_at. rewrite Ei. cbn. rewrite app_nil_r, Hrest. now rewrite skipn_app, skipn_all, Nat.sub_diag.
    - rewrite app_nil_r. apply Hdone. rewrite Hd. now apply Nat.ltb_lt. }
  assert (Hn : length (filter is_new (ls0 ++ arrival k opss)) = length blocks).
  { rewrite filter_app, news_of_arrival, app_nil_r, <- (run_news_count ls0 s H). exact Hlen. }
  exists (arrival k opss), s'. repeat split; auto.
  - apply (any_interleaving_blocks blocks (ls0 ++ arrival k opss) s'); auto. now rewrite run_app, H.
  - now apply all_dropped_least.
Qed.

Lemma consistent_news blocks s m : consistent blocks s ->
  consistent blocks {| SeqWriter.ws := ws s ++ repeat (fresh byte) m; SeqWriter.stream := stream s |}.
Proof.
  intros Hc i w Hn. cbn in Hn. destruct (Nat.lt_ge_cases i (length (ws s))) as [Hl|Hl].
  - rewrite nth_error_app1 in Hn by exact Hl. exact (Hc i w Hn).
  - rewrite nth_error_app2 in Hn by exact Hl. apply nth_error_In, repeat_spec in Hn. subst w. cbn.
    split; [eexists; reflexivity|discriminate].
Qed.

(* from ANY intermediate state of ANY interleaving (some requests not even parsed yet) the execution can be
   completed, and the completed execution meets the hypotheses of any_interleaving_blocks *)
Lemma partial_run_completes blocks ls0 s :
  run true init ls0 = Some s -> length (ws s) <= length blocks -> consistent blocks s ->
  exists ls1 s', run true s ls1 = Some s' /\ stream s' = concat blocks /\ least_undropped (ws s') = None /\
    length (filter is_new (ls0 ++ ls1)) = length blocks /\
    forall i, i < length blocks -> writes_of i (ls0 ++ ls1) = nth i blocks [].
Proof.
  intros H Hlen Hc. set (m := length blocks - length (ws s)).
  set (s1 := {| SeqWriter.ws := ws s ++ repeat (fresh byte) m; SeqWriter.stream := stream s |}).
  assert (H1 : run true init (ls0 ++ repeat New m) = Some s1) by (rewrite run_app, H; apply run_news).
  destruct (partial_run_completes_eq blocks (ls0 ++ repeat New m) s1 H1) as (ls1 & s' & Hrun & Hstr & Hnone & Hnew & Hw).
  - unfold s1, m. cbn. rewrite app_length, repeat_length. lia.
  - apply consistent_news. exact Hc.
  - exists (repeat New m ++ ls1), s'. rewrite app_assoc, run_app, run_news. auto.
Qed.

(* blocked attempts: a thread whose operation is refused waits; the state is unchanged *)
Fixpoint exec (s : st) (ls : list label) : st * list label :=
  match ls with
  | [] => (s, [])
  | l :: r => match step true s l with
              | Some s' => let (sf, done) := exec s' r in (sf, l :: done)
              | None => exec s r
              end
  end.

Lemma exec_run ls : forall s sf done, exec s ls = (sf, done) -> run true s done = Some sf.
Proof.
  induction ls as [|l r IH]; intros s sf done H; cbn in H.
  - inversion H; subst. reflexivity.
  - destruct (step true s l) as [s'|] eqn:E; [|exact (IH s sf done H)].
    destruct (exec s' r) as [sf' done'] eqn:E'. inversion H; subst. cbn. rewrite E. exact (IH s' sf done' E').
Qed.

Lemma profile_stream s k : Inv s ->
  (forall j wj, nth_error (ws s) j = Some wj -> dropped wj = (j <? k)) ->
  stream s = concat (map sent (firstn k (ws s))) ++ sent_at s k /\
  (forall j wj, k < j -> nth_error (ws s) j = Some wj -> sent wj = []).
Proof.
  intros HI Hprof. unfold sent_at. destruct (nth_error (ws s) k) as [wk|] eqn:Ek.
  - assert (Hlater : forall j wj, k < j -> nth_error (ws s) j = Some wj -> sent wj = []).
    { intros j wj Hj Hnj. pose proof (Hprof k wk Ek) as Hdk. rewrite Nat.ltb_irrefl in Hdk.
      now destruct (undropped_after byte s k wk HI Ek Hdk j wj Hj Hnj) as (_ & _ & ?). }
    split; [|exact Hlater]. rewrite (stream_split byte s k wk HI Ek), (concat_all_nil byte (skipn (S k) (ws s))); [now rewrite app_nil_r|].
    intros j wj Hnj. rewrite nth_error_skipn in Hnj. apply (Hlater (S k + j)); [lia|exact Hnj].
  - apply nth_error_None in Ek. split; [rewrite firstn_all2, app_nil_r by exact Ek; apply HI|].
    intros j wj Hj Hnj. assert (j < length (ws s)) by (apply nth_error_Some; congruence). lia.
Qed.

(* a dropped writer has written its whole block, since nothing of ls2 is addressed to it *)
Lemma run_consistent blocks ls1 ls2 s1 s :
  run true init ls1 = Some s1 -> run true s1 ls2 = Some s ->
  length (filter is_new (ls1 ++ ls2)) = length blocks ->
  (forall i, i < length blocks -> writes_of i (ls1 ++ ls2) = nth i blocks []) ->
  length (ws s1) <= length blocks /\ consistent blocks s1.
Proof.
  intros H1 H2 Hn Hw.
  assert (Hle : length (ws s1) <= length blocks).
  { rewrite <- Hn, (run_news_count ls1 s1 H1), filter_app, app_length. lia. }
  split; [exact Hle|]. intros i w Hi.
  assert (i < length (ws s1)) by (apply nth_error_Some; congruence).
  rewrite <- Hw, writes_of_app, <- (sent_is_writes byte true ls1 s1 i w H1 Hi) by lia.
  split; [now eexists|]. intros Hd.
  destruct (dropped_frozen_run byte true ls2 s1 s i w H2 Hi Hd) as (_ & Hf).
  now rewrite (writes_of_none byte i ls2 Hf), app_nil_r.
Qed.

Lemma consistent_prefix blocks s : Inv s -> length (ws s) <= length blocks -> consistent blocks s ->
  exists k p q,
    stream s = concat (firstn k blocks) ++ p /\ nth k blocks [] = p ++ q /\ k <= length blocks /\
    (forall j wj, nth_error (ws s) j = Some wj -> dropped wj = (j <? k)) /\
    (forall j wj, k < j -> nth_error (ws s) j = Some wj -> sent wj = []).
Proof.
  intros HI Hle Hc.
  destruct (dropped_profile s HI) as (k & Hk & Hprof).
  destruct (profile_stream s k HI Hprof) as (Hstr & Hlater).
  assert (Hq : exists q, nth k blocks [] = sent_at s k ++ q).
  { unfold sent_at. destruct (nth_error (ws s) k) as [wk|] eqn:Ek; [exact (proj1 (Hc k wk Ek))|now eexists]. }
  destruct Hq as (q & Hq). exists k, (sent_at s k), q. repeat split; auto; [|lia].
  rewrite Hstr. do 2 f_equal. apply (map_firstn_nth sent []); [exact Hk|exact (Nat.le_trans _ _ _ Hk Hle)|].
  intros j wj Hj Hnj. apply (Hc j wj Hnj). rewrite (Hprof j wj Hnj). now apply Nat.ltb_lt.
Qed.

Lemma prefix_in_order blocks ls1 ls2 s1 s :
  run true init ls1 = Some s1 -> run true s1 ls2 = Some s ->
  length (filter is_new (ls1 ++ ls2)) = length blocks ->
  (forall i, i < length blocks -> writes_of i (ls1 ++ ls2) = nth i blocks []) ->
  exists k p q,
    stream s1 = concat (firstn k blocks) ++ p /\ nth k blocks [] = p ++ q /\ k <= length blocks /\
    (forall j wj, nth_error (ws s1) j = Some wj -> dropped wj = (j <? k)) /\
    (forall j wj, k < j -> nth_error (ws s1) j = Some wj -> sent wj = []).
Proof.
  intros H1 H2 Hn Hw. destruct (run_consistent blocks ls1 ls2 s1 s H1 H2 Hn Hw) as (Hle & Hc).
  apply consistent_prefix; auto. exact (run_init_inv byte ls1 s1 H1).
Qed.

Lemma prefix_of_final blocks k (str p q : bytes) :
  str = concat (firstn k blocks) ++ p -> nth k blocks [] = p ++ q -> exists rest, concat blocks = str ++ rest.
Proof.
  intros -> Hpq. exists (q ++ concat (skipn (S k) blocks)).
  rewrite <- (firstn_skipn k blocks) at 1. rewrite concat_app, concat_skipn_nth, Hpq. now rewrite <- !app_assoc.
Qed.

End Gen.

From TH Require Import Base.Bytes Http.WireFacts.

Local Notation chain_run := (@SeqWriter.run ascii true init).
Local Notation news ls := (List.length (filter is_new ls)).

Lemma nth_seg_blocks date (segs : list seg) i : i < List.length segs ->
  nth i (map (seg_bytes date) segs) [] = seg_bytes date (nth i segs S505).
Proof.
  intros H. rewrite (nth_indep _ [] (seg_bytes date S505)) by now rewrite map_length. apply map_nth.
Qed.

(* hypothesis (c) *)
Definition writes_segments (date : bytes) (segs : list seg) (ls : list (SeqWriter.label ascii)) : Prop :=
  forall i, i < List.length segs -> writes_of i ls = seg_bytes date (nth i segs S505).

Lemma writes_segments_blocks date segs ls : writes_segments date segs ls ->
  forall i, i < List.length (map (seg_bytes date) segs) -> writes_of i ls = nth i (map (seg_bytes date) segs) [].
Proof. intros H i Hi. rewrite map_length in Hi. rewrite nth_seg_blocks by exact Hi. exact (H i Hi). Qed.

Lemma blocks_writes_segments date segs ls :
  (forall i, i < List.length (map (seg_bytes date) segs) -> writes_of i ls = nth i (map (seg_bytes date) segs) []) ->
  writes_segments date segs ls.
Proof. intros H i Hi. rewrite <- nth_seg_blocks by exact Hi. apply H. now rewrite map_length. Qed.

(* The theorems of Props/C01Compose.v speak of the wire `o_wire o` of an outcome of serve with
   `o_wire o = segs_bytes date segs`; nothing else about serve enters, so here the stream is compared with
   `segs_bytes date segs` itself. *)

(* non-vacuity: answering in arrival order, each segment split into arbitrary pieces with arbitrary
   flushes, is a complete run meeting hypotheses (a)(b)(c) *)
Theorem complete_run_gives_wire date (segs : list seg) (opss : list (list (SeqWriterFacts.op ascii))) :
  map data opss = map (seg_bytes date) segs ->
  let ls := repeat New (List.length segs) ++ arrival 0 opss in
  exists cs, chain_run ls = Some cs /\ news ls = List.length segs /\ writes_segments date segs ls /\
    stream cs = segs_bytes date segs /\ least_undropped (ws cs) = None.
Proof.
  intros Hd. cbv zeta. rewrite <- (map_eq_length _ _ _ _ Hd).
  destruct (arrival_from_start ascii opss) as (cs & Hrun & Hstr & _ & Hnone).
  destruct (thread_interleaving_hyps ascii opss _ (arrival_is_interleaving ascii opss)) as (Hn & Hw).
  exists cs. split; [exact Hrun|]. split; [exact Hn|]. split; [|split; [|exact Hnone]].
  - apply blocks_writes_segments. intros i _. rewrite <- Hd. apply Hw.
  - now rewrite Hstr, Hd.
Qed.

Lemma data_single date (segs : list seg) :
  map data (map (fun sg => [OWrite (seg_bytes date sg)]) segs) = map (seg_bytes date) segs.
Proof. rewrite map_map. apply map_ext. intros sg. unfold SeqWriterFacts.data. cbn. now rewrite app_nil_r. Qed.

(* at every moment the client has received all of responses 0..k-1, a prefix of response k, nothing else *)
Theorem prefix_in_order_wire date (segs : list seg) ls1 ls2 cs1 cs :
  chain_run ls1 = Some cs1 -> run true cs1 ls2 = Some cs ->
  news (ls1 ++ ls2) = List.length segs -> writes_segments date segs (ls1 ++ ls2) ->
  exists k p q,
    stream cs1 = segs_bytes date (firstn k segs) ++ p /\
    nth k (map (seg_bytes date) segs) [] = p ++ q /\ k <= List.length segs /\
    (forall j wj, nth_error (ws cs1) j = Some wj -> dropped wj = (j <? k)%nat) /\
    (forall j wj, k < j -> nth_error (ws cs1) j = Some wj -> sent wj = []) /\
    exists rest, segs_bytes date segs = stream cs1 ++ rest.
Proof.
  intros H1 H2 Hn Hw. rewrite <- (map_length (seg_bytes date)) in Hn.
  pose proof (writes_segments_blocks date segs _ Hw) as Hw'.
  destruct (prefix_in_order ascii _ ls1 ls2 cs1 cs H1 H2 Hn Hw') as (k & p & q & Hs & Hpq & Hk & Hd & Hl).
  exists k, p, q. rewrite map_length in Hk. unfold segs_bytes. rewrite <- firstn_map.
  repeat split; auto. exact (prefix_of_final ascii _ k _ p q Hs Hpq).
Qed.
