(* Conc/SeqWriterCheck.v — a computable checker for `system_ok` (Conc/SeqWriterPrograms.v), extracted and used by the
   driver to decide which scheduled scripts of the real writer chain fall under c06_well_ordered_never_stuck /
   c06_well_ordered_terminates (Props/C01Lockstep.v): those scripts must run to completion under every schedule.
   Soundness is proved: whatever the checker accepts is a well-ordered system in the sense of the theorems. *)
From Coq Require Import List Arith Bool Lia.
Import ListNotations.
From TH Require Import Conc.SeqWriter Conc.SeqWriterFacts Conc.SeqWriterPrograms.

Section Check.
Variable byte : Type.
Notation label := (SeqWriter.label byte).
Notation prog := (list label).

Definition count_users (ps : list prog) (j : nat) : nat := length (filter (fun p => uses_b byte p j) ps).
Definition idx_lt (n : nat) (l : label) : bool := match label_index byte l with Some i => i <? n | None => true end.

Definition system_ok_b (n : nat) (ps : list prog) : bool :=
  forallb (wo_b byte) ps
  && forallb (fun j => count_users ps j =? 1) (seq 0 n)
  && forallb (fun p => forallb (idx_lt n) p) ps.

(* two positions whose programs use j make two users: split the list at the first, the second lies on one side *)
Lemma count_users_two ps t1 t2 p1 p2 j :
  t1 <> t2 -> nth_error ps t1 = Some p1 -> nth_error ps t2 = Some p2 ->
  uses_b byte p1 j = true -> uses_b byte p2 j = true -> 2 <= count_users ps j.
Proof.
  intros Hne H1 H2 U1 U2. destruct (nth_error_split ps t1 H1) as (l1 & l2 & -> & <-).
  assert (Hpos : forall l, In p2 l -> 1 <= count_users l j).
  { intros l Hl. assert (Hf : In p2 (filter (fun p => uses_b byte p j) l)) by (apply filter_In; auto).
    unfold count_users. destruct (filter _ l); [destruct Hf|cbn; lia]. }
  unfold count_users in *. rewrite filter_app. cbn [filter]. rewrite U1, app_length. cbn [length].
  destruct (Nat.lt_ge_cases t2 (length l1)) as [Hl|Hl].
  - rewrite nth_error_app1 in H2 by exact Hl. pose proof (Hpos l1 (nth_error_In _ _ H2)). lia.
  - rewrite nth_error_app2 in H2 by exact Hl. destruct (t2 - length l1) as [|m] eqn:E; [lia|].
    cbn in H2. pose proof (Hpos l2 (nth_error_In _ _ H2)). lia.
Qed.

Theorem system_ok_b_sound n ps : system_ok_b n ps = true -> system_ok byte n ps.
Proof.
  unfold system_ok_b. intros H.
  apply andb_true_iff in H as [H Hlt]. apply andb_true_iff in H as [Hwo Hcnt].
  rewrite forallb_forall in Hwo, Hcnt, Hlt.
  assert (Hb : bounded byte n ps).
  { intros p j Hp (l & Hl & Hi). specialize (Hlt p Hp). rewrite forallb_forall in Hlt. specialize (Hlt l Hl).
    unfold idx_lt in Hlt. rewrite Hi in Hlt. now apply Nat.ltb_lt in Hlt. }
  assert (Hone : forall j, j < n -> count_users ps j = 1).
  { intros j Hj. apply Nat.eqb_eq, Hcnt, in_seq. lia. }
  constructor.
  - intros p Hp. apply wo_b_sound. exact (Hwo p Hp).
  - intros t1 t2 p1 p2 j H1 H2 U1 U2.
    destruct (Nat.eq_dec t1 t2) as [E|Hne]; [exact E|exfalso].
    pose proof (Hone j (Hb p1 j (nth_error_In _ _ H1) U1)) as Hc.
    apply uses_b_spec in U1, U2.
    pose proof (count_users_two ps t1 t2 p1 p2 j Hne H1 H2 U1 U2). lia.
  - exact Hb.
  - intros j Hj. pose proof (Hone j Hj) as Hc. unfold count_users in Hc.
    destruct (filter (fun p => uses_b byte p j) ps) as [|p r] eqn:Ef; [discriminate|].
    assert (Hin : In p (filter (fun p => uses_b byte p j) ps)) by (rewrite Ef; left; reflexivity).
    apply filter_In in Hin as [Hp Hu]. exists p. split; [exact Hp|]. now apply uses_b_spec.
Qed.
End Check.

(* the instance the driver uses (bytes as numbers) *)
Definition sw_system_ok_b (n : nat) (ps : list (list (SeqWriter.label nat))) : bool := system_ok_b nat n ps.
