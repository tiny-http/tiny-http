(* Conc/SeqWriterProgress.v — systems of per-thread programs running over the sequential-writer chain
   (Conc/SeqWriter.v, repaired tree). A configuration is a chain state plus the remaining suffix of every program;
   a move executes the head label of one program when the model enables it. For a system of well-ordered programs
   in which every writer is owned by exactly one program (`system_ok`, Conc/SeqWriterPrograms.v):
   - `cinv_not_stuck`: in every configuration reached by moves either all programs are finished or some head label
     is enabled (the program owning the least undropped writer can always move);
   - every move removes one label, so every sequence of moves has at most (total number of labels) moves, can be
     extended to one that finishes, and every maximal one ends finished with all writers dropped and the stream being
     the per-writer data in writer order.
   The `New`s may be executed beforehand or be a further program (`creator`) interleaved with the others. *)
From Coq Require Import List Arith Bool Lia.
Import ListNotations.
From TH Require Import Conc.SeqWriter Conc.SeqWriterFacts Conc.SeqWriterPrograms.

Local Arguments dropped {byte}.
Local Arguments ws {byte}.
Local Arguments stream {byte}.
Local Arguments New {byte}.
Local Arguments DropW {byte}.
Local Arguments step {byte}.
Local Arguments run {byte}.
Local Arguments init {byte}.
Local Arguments reachable {byte}.
Local Arguments label_index {byte}.
Local Arguments is_drop {byte}.
Local Arguments is_new {byte}.
Local Arguments writes_of {byte}.
Local Arguments sent_at {byte}.
Local Arguments dropped_at {byte}.
Local Arguments enabled {byte}.
Local Arguments least_undropped {byte}.
Local Arguments uses {byte}.
Local Arguments well_ordered {byte}.
Local Arguments creator {byte}.
Local Arguments disjoint {byte}.
Local Arguments system_ok {byte}.

Section Progress.
Variable byte : Type.
Notation bytes := (list byte).
Notation wr := (SeqWriter.wr byte).
Notation st := (SeqWriter.st byte).
Notation label := (SeqWriter.label byte).
Notation prog := (SeqWriterPrograms.prog byte).
Implicit Types (s : st) (w : wr) (l : label) (p q : prog) (ps : list prog).

Record config := { cst : st; cps : list prog }.
Implicit Types (c : config).

(* thread t executes the head label of its program, if the model enables it *)
Definition exec_at c (t : nat) : option config :=
  match nth_error (cps c) t with
  | Some (l :: p) =>
      match step true (cst c) l with
      | Some s' => Some {| cst := s'; cps := upd (cps c) t p |}
      | None => None
      end
  | _ => None
  end.

(* a sequence of moves, given by the threads that move *)
Fixpoint exec c (sched : list nat) : option config :=
  match sched with
  | [] => Some c
  | t :: r => match exec_at c t with Some c' => exec c' r | None => None end
  end.

(* the labels executed along a schedule, in the order they happen *)
Fixpoint trace c (sched : list nat) : list label :=
  match sched with
  | [] => []
  | t :: r => match nth_error (cps c) t, exec_at c t with
              | Some (l :: _), Some c' => l :: trace c' r
              | _, _ => []
              end
  end.

Definition finished c : Prop := forall p, In p (cps c) -> p = [].
Definition size c : nat := length (concat (cps c)).
Definition news ps : nat := length (filter is_new (concat ps)).

Lemma exec_at_inversion c t c' : exec_at c t = Some c' ->
  exists l p s', nth_error (cps c) t = Some (l :: p) /\ step true (cst c) l = Some s' /\
    c' = {| cst := s'; cps := upd (cps c) t p |}.
Proof.
  unfold exec_at. intros H. destruct (nth_error (cps c) t) as [[|l p]|] eqn:Et; try discriminate.
  destruct (step true (cst c) l) as [s'|] eqn:Es; [|discriminate]. inversion H. eauto 6.
Qed.

Lemma exec_at_enabled c t l p : nth_error (cps c) t = Some (l :: p) -> enabled (cst c) l ->
  exists c', exec_at c t = Some c'.
Proof. intros Ht [s' Hs]. unfold exec_at. rewrite Ht, Hs. eauto. Qed.

Lemma exec_app c (r1 r2 : list nat) :
  exec c (r1 ++ r2) = match exec c r1 with Some c1 => exec c1 r2 | None => None end.
Proof.
  revert c. induction r1 as [|t r1 IH]; intros c; cbn; [reflexivity|].
  destruct (exec_at c t); [apply IH|reflexivity].
Qed.

Lemma exec_run sched : forall c c', exec c sched = Some c' ->
  run true (cst c) (trace c sched) = Some (cst c') /\ length (trace c sched) = length sched.
Proof.
  induction sched as [|t r IH]; intros c c' H; cbn in H.
  - inversion H. auto.
  - destruct (exec_at c t) as [c1|] eqn:E; [|discriminate].
    destruct (exec_at_inversion c t c1 E) as (l & p & s' & Ht & Hs & ->).
    cbn [trace]. rewrite Ht, E. cbn [run length]. rewrite Hs.
    destruct (IH _ c' H) as (Hr & Hl). cbn in Hr. now rewrite Hr, Hl.
Qed.

Lemma exec_at_size c t c' : exec_at c t = Some c' -> size c = S (size c').
Proof.
  intros H. destruct (exec_at_inversion c t c' H) as (l & p & s' & Ht & _ & ->).
  destruct (upd_split (cps c) t (l :: p) Ht) as (ps1 & ps2 & E & Hu).
  unfold size. cbn [cps]. rewrite Hu, E, !concat_app. cbn [concat]. rewrite !app_length. cbn. lia.
Qed.

Lemma exec_size sched : forall c c', exec c sched = Some c' -> size c = length sched + size c'.
Proof.
  induction sched as [|t r IH]; intros c c' H; cbn in H.
  - inversion H. reflexivity.
  - destruct (exec_at c t) as [c1|] eqn:E; [|discriminate].
    rewrite (exec_at_size c t c1 E), (IH c1 c' H). reflexivity.
Qed.

Record CInv (n : nat) c : Prop := {
  ci_reach : reachable (cst c);
  ci_len : length (ws (cst c)) + news (cps c) = n;
  ci_shape : forall t p, nth_error (cps c) t = Some p -> well_ordered p \/ creator p;
  ci_disj : disjoint (cps c);
  (* a writer some remaining program still uses is not dropped *)
  ci_live : forall t p j, nth_error (cps c) t = Some p -> uses p j -> j < n /\ dropped_at (cst c) j = false;
  (* a writer that is not dropped (possibly not yet created) is still used by some remaining program *)
  ci_owned : forall j, j < n -> dropped_at (cst c) j = false -> exists t p, nth_error (cps c) t = Some p /\ uses p j }.

Lemma upd_uses ps t l p t' q j : nth_error ps t = Some (l :: p) -> nth_error (upd ps t p) t' = Some q ->
  uses q j -> exists q', nth_error ps t' = Some q' /\ uses q' j /\ ((t' = t /\ q = p) \/ (t' <> t /\ q' = q)).
Proof.
  intros Ht Hq Hu. apply nth_upd_cases in Hq as [(-> & -> & _)|(Hne & Hq)].
  - exists (l :: p). split; [exact Ht|]. split; [apply uses_cons; auto|auto].
  - exists q. auto.
Qed.

Lemma news_step ps t l p : nth_error ps t = Some (l :: p) ->
  news ps = (if is_new l then 1 else 0) + news (upd ps t p).
Proof.
  intros Ht. destruct (upd_split ps t (l :: p) Ht) as (ps1 & ps2 & E & Hu).
  unfold news. rewrite Hu, E, !concat_app. cbn [concat]. rewrite !filter_app. cbn [app filter].
  destruct (is_new l); rewrite !app_length; cbn [length]; rewrite ?app_length; lia.
Qed.

Lemma news_pos ps : news ps <> 0 -> exists t q, nth_error ps t = Some q /\ In New q.
Proof.
  unfold news. intros H. destruct (filter is_new (concat ps)) as [|x r] eqn:Ef; [contradiction|].
  assert (Hx : In x (filter is_new (concat ps))) by (rewrite Ef; left; reflexivity).
  apply filter_In in Hx as (Hx & Hxn). destruct x; try discriminate.
  apply in_concat in Hx as (q & Hq & Hxq). apply In_nth_error in Hq as (t & Hq). eauto.
Qed.

Lemma news_none ps : (forall p, In p ps -> well_ordered p) -> news ps = 0.
Proof.
  intros H. destruct (Nat.eq_dec (news ps) 0) as [E|E]; [exact E|].
  destruct (news_pos ps E) as (t & q & Hq & Hn). destruct (wo_no_new _ _ (H q (nth_error_In _ _ Hq)) Hn).
Qed.

Lemma cinv_step n c t c' : CInv n c -> exec_at c t = Some c' -> CInv n c'.
Proof.
  intros [Hr Hlen Hshape Hdisj Hlive Hown] H.
  destruct (exec_at_inversion c t c' H) as (l & p & s' & Ht & Hs & ->). clear H.
  assert (Hhead : forall i, label_index l = Some i -> well_ordered (l :: p)).
  { intros i Hi. destruct (Hshape t _ Ht) as [Hwo|Hcr]; [exact Hwo|].
    destruct (creator_tail byte l p Hcr) as (-> & _). discriminate. }
  constructor; cbn [cst cps].
  - exact (reachable_step byte _ l s' Hr Hs).
  - rewrite (step_length byte true _ l s' Hs). rewrite (news_step _ t l p Ht) in Hlen. lia.
  - intros t' q Hq. apply nth_upd_cases in Hq as [(-> & -> & _)|(Hne & Hq)]; [|exact (Hshape t' q Hq)].
    destruct (Hshape t _ Ht) as [Hwo|Hcr]; [left; exact (wo_tail byte l p Hwo)|right].
    exact (proj2 (creator_tail byte l p Hcr)).
  - intros t1 t2 p1 p2 j H1 H2 U1 U2.
    destruct (upd_uses _ t l p t1 p1 j Ht H1 U1) as (q1 & Hq1 & Uq1 & _).
    destruct (upd_uses _ t l p t2 p2 j Ht H2 U2) as (q2 & Hq2 & Uq2 & _).
    exact (Hdisj t1 t2 q1 q2 j Hq1 Hq2 Uq1 Uq2).
  - intros t' q j Hq Hu.
    destruct (upd_uses _ t l p t' q j Ht Hq Hu) as (q' & Hq' & Uq' & Hcase).
    destruct (Hlive t' q' j Hq' Uq') as (Hjn & Hold). split; [exact Hjn|].
    rewrite (step_dropped_at byte true _ l s' j Hs), Hold. cbn.
    destruct (is_drop j l) eqn:Ed; [exfalso|reflexivity]. apply is_drop_true in Ed. subst l.
    (* the step was DropW j, yet a remaining program uses j *)
    assert (Hwo : well_ordered (DropW j :: p)) by (apply (Hhead j); reflexivity).
    destruct Hcase as [(-> & ->)|(Hne & ->)].
    + exact (wo_drop_head byte j p Hwo Hu).
    + apply Hne. apply (Hdisj t' t q (DropW j :: p) j Hq' Ht Uq'). apply uses_cons. left. reflexivity.
  - intros j Hjn Hnd. rewrite (step_dropped_at byte true _ l s' j Hs) in Hnd.
    apply orb_false_iff in Hnd as [Hold Hnd].
    destruct (Hown j Hjn Hold) as (t' & q & Hq & Uq).
    destruct (Nat.eq_dec t' t) as [->|Hne].
    + rewrite Ht in Hq. injection Hq as <-. exists t, p.
      split; [exact (nth_upd_at _ t _ _ Ht)|].
      apply uses_cons in Uq as [Hl|Up]; [|exact Up].
      (* j is used at the executed head, which was not its drop: the drop is still to come *)
      apply uses_drop. exact (wo_head_drop_later byte l p j (Hhead j Hl) Hl Hnd).
    + exists t', q. split; [|exact Uq]. rewrite nth_upd_other by congruence. exact Hq.
Qed.

Lemma cinv_exec n sched : forall c c', CInv n c -> exec c sched = Some c' -> CInv n c'.
Proof.
  induction sched as [|t r IH]; intros c c' HI H; cbn in H; [inversion H; now subst|].
  destruct (exec_at c t) as [c1|] eqn:E; [|discriminate]. exact (IH c1 c' (cinv_step n c t c1 HI E) H).
Qed.

(* a pending New is the head of a creator, and enabled; otherwise all n writers exist, and the program that still
   uses the least undropped one has an operation of that very writer at its head *)
Theorem cinv_not_stuck n c : CInv n c -> finished c \/ exists t c', exec_at c t = Some c'.
Proof.
  intros [Hr Hlen Hshape Hdisj Hlive Hown].
  destruct (Nat.eq_dec (news (cps c)) 0) as [En|En].
  2:{ right. destruct (news_pos _ En) as (t & q & Hq & Hn).
      destruct (Hshape t q Hq) as [Hwo|Hcr]; [destruct (wo_no_new _ _ Hwo Hn)|].
      destruct q as [|y q]; [destruct Hn|]. destruct (creator_tail byte y q Hcr) as (-> & _).
      exists t. apply (exec_at_enabled c t New q Hq). eexists. reflexivity. }
  rewrite En, Nat.add_0_r in Hlen.
  destruct (least_undropped (ws (cst c))) as [m|] eqn:El; [right|left].
  - destruct (least_undropped_at byte _ _ El) as (Hmn & Hdm & Hb). rewrite Hlen in Hmn.
    destruct (Hown m Hmn Hdm) as (t & q & Hq & Uq).
    destruct q as [|l p]; [destruct (uses_nil byte m Uq)|].
    destruct (Hshape t _ Hq) as [Hwo|Hcr]; [|destruct (creator_uses byte _ m Hcr Uq)].
    destruct (wo_head_index byte l p Hwo) as (k & Hk).
    assert (Hkm : k <= m) by exact (wo_head_least byte l p k m Hwo Hk Uq).
    destruct (Hlive t _ k Hq) as (Hkn & Hkd); [apply uses_cons; auto|].
    assert (k = m) as ->.
    { destruct (Nat.eq_dec k m) as [|Hne]; [assumption|]. rewrite (Hb k) in Hkd by lia. discriminate. }
    exists t. apply (exec_at_enabled c t l p Hq). exact (least_undropped_op_enabled byte _ m l El Hk).
  - (* every writer is dropped and none is to be created, so a remaining head label would be neither an operation
       nor a New *)
    intros p Hp. apply In_nth_error in Hp as (t & Ht). destruct p as [|l p]; [reflexivity|exfalso].
    destruct (label_index l) as [j|] eqn:Hj.
    + destruct (Hlive t _ j Ht) as (Hjn & Hjd); [apply uses_cons; auto|].
      rewrite (all_dropped_at byte _ j El) in Hjd by lia. discriminate.
    + apply label_index_none in Hj. subst l. rewrite (news_step _ t New p Ht) in En. discriminate.
Qed.

Definition stuck c : Prop := ~ finished c /\ forall t, exec_at c t = None.

Definition is_nil {A} (x : list A) : bool := match x with [] => true | _ => false end.
Definition is_none {A} (x : option A) : bool := match x with None => true | Some _ => false end.
Definition finished_b c : bool := forallb is_nil (cps c).
Definition stuck_b c : bool :=
  negb (finished_b c) && forallb (fun t => is_none (exec_at c t)) (seq 0 (length (cps c))).

Lemma finished_b_spec c : finished_b c = true <-> finished c.
Proof.
  unfold finished_b, finished. rewrite forallb_forall. split; intros H p Hp.
  - specialize (H p Hp). now destruct p.
  - now rewrite (H p Hp).
Qed.

Lemma stuck_b_spec c : stuck_b c = true <-> stuck c.
Proof.
  unfold stuck_b, stuck. rewrite andb_true_iff, negb_true_iff, <- not_true_iff_false, finished_b_spec, forallb_forall.
  split; intros (Hf & Hn); (split; [exact Hf|]).
  - intros t. destruct (Nat.lt_ge_cases t (length (cps c))) as [Hl|Hl].
    + specialize (Hn t). rewrite in_seq in Hn. specialize (Hn ltac:(lia)). now destruct (exec_at c t).
    + unfold exec_at. apply nth_error_None in Hl. now rewrite Hl.
  - intros t _. now rewrite Hn.
Qed.

Lemma cinv_can_finish n : forall k c, size c = k -> CInv n c ->
  exists sched c', exec c sched = Some c' /\ finished c'.
Proof.
  induction k as [k IH] using lt_wf_ind. intros c Hk HI.
  destruct (cinv_not_stuck n c HI) as [Hf|(t & c1 & E)]; [exists [], c; auto|].
  rewrite (exec_at_size c t c1 E) in Hk.
  destruct (IH (size c1) ltac:(lia) c1 eq_refl (cinv_step n c t c1 HI E)) as (sched & c' & Hr & Hf).
  exists (t :: sched), c'. cbn. rewrite E. auto.
Qed.

(* K j = everything the system writes through writer j: what was sent so far plus what the programs still hold *)
Definition WInv (K : nat -> bytes) c : Prop :=
  forall j, sent_at (cst c) j ++ writes_of j (concat (cps c)) = K j.

Lemma winv_step K c t c' : disjoint (cps c) -> WInv K c -> exec_at c t = Some c' -> WInv K c'.
Proof.
  intros Hdisj HW H j. destruct (exec_at_inversion c t c' H) as (l & p & s' & Ht & Hs & ->). cbn [cst cps].
  rewrite <- (HW j). rewrite (step_sent_at byte true _ l s' j Hs).
  destruct (upd_split (cps c) t (l :: p) Ht) as (ps1 & ps2 & E & Hu).
  rewrite Hu, E, !concat_app. cbn [concat]. rewrite !writes_of_app, writes_of_cons, <- !app_assoc. f_equal.
  (* the moved label's data changes sides: nothing to show unless it is of writer j, and then the programs before
     thread t, which do not use j, write nothing through it *)
  destruct (label_index_dec byte l j) as [El|El]; [|now rewrite (wdata_other byte j l El)].
  rewrite E in Hdisj. destruct (disjoint_split byte ps1 (l :: p) ps2 j Hdisj) as (-> & _); [|reflexivity].
  apply uses_cons. auto.
Qed.

Lemma winv_exec n K sched : forall c c', CInv n c -> WInv K c -> exec c sched = Some c' -> WInv K c'.
Proof.
  induction sched as [|t r IH]; intros c c' HI HW H; cbn in H; [inversion H; now subst|].
  destruct (exec_at c t) as [c1|] eqn:E; [|discriminate].
  exact (IH c1 c' (cinv_step n c t c1 HI E) (winv_step K c t c1 (ci_disj n c HI) HW E) H).
Qed.

Lemma cinv_finished n K c : CInv n c -> WInv K c -> finished c ->
  size c = 0 /\
  length (ws (cst c)) = n /\
  (forall j w, nth_error (ws (cst c)) j = Some w -> dropped w = true) /\
  stream (cst c) = concat (map K (seq 0 n)).
Proof.
  intros [Hr Hlen Hshape Hdisj Hlive Hown] HW Hfin.
  assert (Hnil : concat (cps c) = []) by (apply concat_nil_Forall, Forall_forall; exact Hfin).
  unfold news in Hlen. rewrite Hnil in Hlen. cbn in Hlen. rewrite Nat.add_0_r in Hlen.
  split; [unfold size; now rewrite Hnil|]. split; [exact Hlen|]. split.
  - intros j w Hw. destruct (dropped w) eqn:Ed; [reflexivity|exfalso].
    assert (Hjn : j < n) by (rewrite <- Hlen; apply nth_error_Some; congruence).
    destruct (Hown j Hjn) as (t & q & Hq & Uq); [unfold dropped_at; now rewrite Hw|].
    rewrite (Hfin q (nth_error_In _ _ Hq)) in Uq. exact (uses_nil byte j Uq).
  - destruct (reachable_inv byte _ Hr) as (Hstr & _). rewrite Hstr, <- Hlen. f_equal.
    apply map_as_seq. intros i w Hw. rewrite <- (HW i), Hnil. unfold sent_at. rewrite Hw.
    cbn. now rewrite app_nil_r.
Qed.

(* a maximal sequence of moves ends finished, after as many moves as there were labels *)
Theorem cinv_maximal n K c0 sched c : CInv n c0 -> WInv K c0 -> exec c0 sched = Some c ->
  (forall t, exec_at c t = None) ->
  finished c /\ length sched = size c0 /\ length (ws (cst c)) = n /\
  (forall j w, nth_error (ws (cst c)) j = Some w -> dropped w = true) /\
  stream (cst c) = concat (map K (seq 0 n)).
Proof.
  intros HI0 HW0 H Hmax. pose proof (cinv_exec n sched c0 c HI0 H) as HI.
  destruct (cinv_not_stuck n c HI) as [Hf|(t & c1 & E)]; [|rewrite Hmax in E; discriminate].
  destruct (cinv_finished n K c HI (winv_exec n K sched c0 c HI0 HW0 H) Hf) as (Hz & Hrest).
  pose proof (exec_size sched c0 c H) as Hsz. rewrite Hz in Hsz.
  split; [exact Hf|]. split; [lia|exact Hrest].
Qed.

(* the writers were created beforehand *)
Lemma cinv_start n ps s0 : system_ok n ps -> run true init (repeat New n) = Some s0 ->
  CInv n {| cst := s0; cps := ps |} /\ WInv (fun j => writes_of j (concat ps)) {| cst := s0; cps := ps |}.
Proof.
  intros [Hwo Hdisj Hbnd Hown] H0. pose proof H0 as Hr. rewrite run_news in H0. injection H0 as E0.
  assert (Hfresh : forall j, dropped_at s0 j = false /\ sent_at s0 j = []).
  { intros j. unfold dropped_at, sent_at. rewrite <- E0. cbn [ws init app].
    destruct (nth_error (repeat (fresh byte) n) j) as [w|] eqn:Ew; [|auto].
    apply nth_error_In, repeat_spec in Ew. subst w. auto. }
  split.
  - constructor; cbn [cst cps].
    + exists (repeat New n). exact Hr.
    + rewrite <- E0. cbn [ws init app]. rewrite repeat_length, (news_none ps Hwo). lia.
    + intros t p Hp. left. exact (Hwo p (nth_error_In _ _ Hp)).
    + exact Hdisj.
    + intros t p j Hp Hu. split; [exact (Hbnd p j (nth_error_In _ _ Hp) Hu)|exact (proj1 (Hfresh j))].
    + intros j Hj _. destruct (Hown j Hj) as (p & Hp & Hu). apply In_nth_error in Hp as (t & Hp). eauto.
  - intros j. cbn [cst cps]. now rewrite (proj2 (Hfresh j)).
Qed.

(* the writers are created by a further program running concurrently *)
Lemma cinv_start_creation n ps : system_ok n ps ->
  CInv n {| cst := init; cps := repeat New n :: ps |} /\
  WInv (fun j => writes_of j (concat ps)) {| cst := init; cps := repeat New n :: ps |}.
Proof.
  intros [Hwo Hdisj Hbnd Hown]. split.
  - constructor; cbn [cst cps ws init length].
    + apply reachable_init.
    + unfold news. cbn [concat]. rewrite filter_app, app_length, filter_new_repeat, repeat_length.
      fold (news ps). rewrite (news_none ps Hwo). lia.
    + intros [|t] p Hp; cbn in Hp.
      * injection Hp as <-. right. apply creator_repeat.
      * left. exact (Hwo p (nth_error_In _ _ Hp)).
    + intros [|t1] [|t2] p1 p2 j H1 H2 U1 U2; cbn in H1, H2; auto.
      * injection H1 as <-. destruct (creator_uses byte _ j (creator_repeat byte n) U1).
      * injection H2 as <-. destruct (creator_uses byte _ j (creator_repeat byte n) U2).
      * f_equal. exact (Hdisj t1 t2 p1 p2 j H1 H2 U1 U2).
    + intros [|t] p j Hp Hu; cbn in Hp.
      * injection Hp as <-. destruct (creator_uses byte _ j (creator_repeat byte n) Hu).
      * split; [exact (Hbnd p j (nth_error_In _ _ Hp) Hu)|]. now destruct j.
    + intros j Hj _. destruct (Hown j Hj) as (p & Hp & Hu). apply In_nth_error in Hp as (t & Hp).
      exists (S t), p. auto.
  - intros j. unfold sent_at. cbn [cst cps ws init concat]. rewrite writes_of_app, writes_of_news.
    now destruct j.
Qed.

End Progress.
