(* Conc/TaskPool.v — src/util/task_pool.rs as an interleaving transition system with virtual time,
   over ALL label sequences: any number of workers, dispatch bursts, wake-up / timeout orders.
   Labels <-> code: Dispatch = TaskPool::spawn (task_pool.rs:82-93); Start/Exit = the thread counter's
   guard, Registration::new(&active_tasks) (100) and its drop when the closure returns (131-133; Drop
   for Registration 56-60); Lock = 106-129 (lock 108; pop_front 112-115, or register as waiting 116 and
   choose the timed or the untimed wait 118-129); Resume = the wait returns (120 / 127-128), then the
   test 131-133 or back to pop_front (112); PoolDrop = Drop for TaskPool (145-152).
   `fixed = true`: the repaired dispatch test `waiting <= queue.len()` (repair D3);
   `fixed = false`: as found (`waiting == 0`). *)
From Coq Require Import List Arith Bool Lia.
Import ListNotations.

Section TP.
Variable task : Type.
Variable MIN : nat.       (* MIN_THREADS *)
Variable IDLE : nat.      (* 5000 ms *)
Variable BIG : nat.       (* 999_999_999 *)
Hypothesis BIG_big : MIN < BIG.
(* as for MS_pos in Conc/MsgQueue.v: the lemmas proved with lia take MIN, BIG and MIN < BIG after End TP;
   woken_takes_head takes them by `Proof using` *)

Inductive wstate :=
| Spawned (f : option task)          (* thread created, has not yet incremented active_tasks *)
| AtLock                             (* about to lock `todo` *)
| Blocked (timed : bool) (deadline : nat)
| Woken (received : bool)            (* wait returned (notified / spurious: true, timed out: false), lock not yet re-acquired *)
| Running (tk : task)
| Exiting                            (* decided to return, active_tasks not yet decremented *)
| Exited.

Record st := { todo : list task; waiting : nat; active : nat; dropped : bool; now : nat;
               ws : list wstate; started : list task }.

Inductive label :=
| Dispatch (tk : task) (w : option nat) | Start (w : nat) | TaskDone (w : nat) | Lock (w : nat)
| Spurious (w : nat) | Timeout (w : nat) | Resume (w : nat) | Exit (w : nat) | PoolDrop | Tick (d : nat).

(* the same function as SeqWriter.upd and MsgQueue.upd *)
Fixpoint upd {A} (l : list A) (i : nat) (x : A) : list A :=
  match l, i with [], _ => [] | _ :: t, 0 => x :: t | a :: t, S j => a :: upd t j x end.

Definition is_blocked r := match r with Blocked _ _ => true | _ => false end.
Definition is_untimed r := match r with Blocked false _ => true | _ => false end.
Definition is_woken r := match r with Woken _ => true | _ => false end.
Definition is_live r := match r with AtLock | Blocked _ _ | Woken _ | Running _ | Exiting => true | _ => false end.
Definition count (f : wstate -> bool) (l : list wstate) : nat := length (filter f l).
Arguments count : simpl never.

Definition wake r := match r with Blocked _ _ => Woken true | r => r end.

Definition notify (l : list wstate) (w : option nat) : option (list wstate) :=
  match w with
  | Some t => match nth_error l t with
              | Some r => if is_blocked r then Some (upd l t (wake r)) else None
              | None => None end
  | None => if Nat.eqb (count is_blocked l) 0 then Some l else None
  end.

(* the body of the worker's inner loop, executed with the lock held: take a task or register and wait *)
Definition pop_or_wait (s : st) (w : nat) (waiting' : nat) : st :=
  match todo s with
  | tk :: rest => {| todo := rest; waiting := waiting'; active := active s; dropped := dropped s; now := now s;
                     ws := upd (ws s) w (Running tk); started := started s ++ [tk] |}
  | [] => {| todo := []; waiting := S waiting'; active := active s; dropped := dropped s; now := now s;
             ws := upd (ws s) w (Blocked (MIN <? active s) (now s + IDLE)); started := started s |}
  end.

Definition set_ws s l := {| todo := todo s; waiting := waiting s; active := active s; dropped := dropped s; now := now s; ws := l; started := started s |}.

Definition step (fixed : bool) (s : st) (l : label) : option st :=
  match l with
  | Dispatch tk w =>
      if dropped s then None else
      if (if fixed then waiting s <=? length (todo s) else waiting s =? 0) then
        match w with None => Some (set_ws s (ws s ++ [Spawned (Some tk)])) | Some _ => None end
      else match notify (ws s) w with
           | Some l' => Some {| todo := todo s ++ [tk]; waiting := waiting s; active := active s; dropped := dropped s; now := now s; ws := l'; started := started s |}
           | None => None end
  | Start w => match nth_error (ws s) w with
               | Some (Spawned (Some tk)) => Some {| todo := todo s; waiting := waiting s; active := S (active s); dropped := dropped s; now := now s;
                                                     ws := upd (ws s) w (Running tk); started := started s ++ [tk] |}
               | Some (Spawned None) => Some {| todo := todo s; waiting := waiting s; active := S (active s); dropped := dropped s; now := now s;
                                                ws := upd (ws s) w AtLock; started := started s |}
               | _ => None end
  | TaskDone w => match nth_error (ws s) w with Some (Running _) => Some (set_ws s (upd (ws s) w AtLock)) | _ => None end
  | Lock w => match nth_error (ws s) w with Some AtLock => Some (pop_or_wait s w (waiting s)) | _ => None end
  | Spurious w => match nth_error (ws s) w with Some (Blocked _ _) => Some (set_ws s (upd (ws s) w (Woken true))) | _ => None end
  | Timeout w => match nth_error (ws s) w with
                 | Some (Blocked true d) => if d <=? now s then Some (set_ws s (upd (ws s) w (Woken false))) else None
                 | _ => None end
  | Resume w => match nth_error (ws s) w with
                | Some (Woken r) =>
                    if negb r && (match todo s with [] => true | _ => false end)
                    then Some {| todo := todo s; waiting := waiting s - 1; active := active s; dropped := dropped s; now := now s;
                                 ws := upd (ws s) w Exiting; started := started s |}
                    else Some (pop_or_wait s w (waiting s - 1))
                | _ => None end
  | Exit w => match nth_error (ws s) w with
              | Some Exiting => if dropped s && (active s <=? S MIN) then None (* assumption: fewer than BIG-MIN workers *) else
                                Some {| todo := todo s; waiting := waiting s; active := active s - 1; dropped := dropped s; now := now s;
                                        ws := upd (ws s) w Exited; started := started s |}
              | _ => None end
  | PoolDrop => Some {| todo := todo s; waiting := waiting s; active := BIG; dropped := true; now := now s;
                        ws := map wake (ws s); started := started s |}
  | Tick d => Some {| todo := todo s; waiting := waiting s; active := active s; dropped := dropped s; now := now s + d; ws := ws s; started := started s |}
  end.

Fixpoint run (fixed : bool) (s : st) (ls : list label) : option st :=
  match ls with [] => Some s | l :: ls' => match step fixed s l with Some s' => run fixed s' ls' | None => None end end.

Definition init : st := {| todo := []; waiting := 0; active := 0; dropped := false; now := 0; ws := repeat (Spawned None) MIN; started := [] |}.

Lemma nth_upd_some {A} (l : list A) i old x : nth_error l i = Some old -> nth_error (upd l i x) i = Some x.
Proof. revert i. induction l as [|a l IH]; intros [|i] H; cbn in *; try discriminate; auto. Qed.

Lemma count_upd f l i old x : nth_error l i = Some old ->
  count f (upd l i x) + (if f old then 1 else 0) = count f l + (if f x then 1 else 0).
Proof.
  unfold count. revert i. induction l as [|a l IH]; intros [|i] H; cbn in *; try discriminate.
  - inversion H; subst a. destruct (f old), (f x); cbn; lia.
  - specialize (IH i H). destruct (f a); cbn; lia.
Qed.
Lemma count_app f a b : count f (a ++ b) = count f a + count f b.
Proof. unfold count. now rewrite filter_app, app_length. Qed.
Lemma count_repeat_false f x n : f x = false -> count f (repeat x n) = 0.
Proof. intros H. unfold count. induction n; cbn; auto. now rewrite H. Qed.
Lemma count_map_wake_blocked l : count is_blocked (map wake l) = 0.
Proof. unfold count. induction l as [|[]]; cbn; auto. Qed.
Lemma count_map_wake_untimed l : count is_untimed (map wake l) = 0.
Proof. unfold count. induction l as [|[| |[]| | | |]]; cbn; auto. Qed.
Lemma count_map_wake_woken l : count is_woken (map wake l) = count is_woken l + count is_blocked l.
Proof. unfold count. induction l as [|[]]; cbn; auto; lia. Qed.
Lemma count_map_wake_live l : count is_live (map wake l) = count is_live l.
Proof. unfold count. induction l as [|[]]; cbn; auto. Qed.
Lemma untimed_le_blocked l : count is_untimed l <= count is_blocked l.
Proof. unfold count. induction l as [|[| |[]| | | |]]; cbn; auto; lia. Qed.

Lemma untimed_le_live l : count is_untimed l <= count is_live l.
Proof. unfold count. induction l as [|[| |[]| | | |]]; cbn; auto; lia. Qed.
Lemma untimed_lt_live l w r : nth_error l w = Some r -> is_live r = true -> is_untimed r = false ->
  count is_untimed l + 1 <= count is_live l.
Proof.
  intros H Hl Hu. pose proof (count_upd is_live l w r Exited H) as Cl. pose proof (count_upd is_untimed l w r Exited H) as Cu.
  rewrite Hl in Cl. rewrite Hu in Cu. pose proof (untimed_le_live (upd l w Exited)). cbn in Cl, Cu. lia.
Qed.

(* J1: the idle counter counts registered workers; J2: every queued task has an awake worker;
   J3: before the pool is dropped the thread counter counts live workers; J3': after the drop it stays above MIN
   and nobody waits without a deadline; J4: at most MIN untimed waiters *)
Definition Inv (s : st) : Prop :=
  waiting s = count is_blocked (ws s) + count is_woken (ws s) /\
  length (todo s) <= count is_woken (ws s) /\
  (dropped s = false -> active s = count is_live (ws s)) /\
  (dropped s = true -> MIN < active s /\ count is_untimed (ws s) = 0) /\
  count is_untimed (ws s) <= MIN.

Lemma notify_cases l w l' : notify l w = Some l' ->
  (count is_blocked l = 0 /\ l' = l) \/
  (exists t r, nth_error l t = Some r /\ is_blocked r = true /\ l' = upd l t (wake r)).
Proof.
  unfold notify. destruct w as [t|].
  - destruct (nth_error l t) as [r|] eqn:E; [|discriminate]. destruct (is_blocked r) eqn:Eb; [|discriminate].
    intros [= <-]. right. eauto.
  - destruct (Nat.eqb_spec (count is_blocked l) 0); [|discriminate]. intros [= <-]. auto.
Qed.

Lemma notify_counts l w l' : notify l w = Some l' ->
  (count is_blocked l = 0 /\ l' = l) \/
  (count is_blocked l' + 1 = count is_blocked l /\ count is_woken l' = count is_woken l + 1 /\
   count is_live l' = count is_live l /\ count is_untimed l' <= count is_untimed l).
Proof.
  intros H. destruct (notify_cases _ _ _ H) as [Hz|(t & r & E & Eb & ->)]; [left; exact Hz|right].
  pose proof (count_upd is_blocked l t r (wake r) E). pose proof (count_upd is_woken l t r (wake r) E).
  pose proof (count_upd is_live l t r (wake r) E). pose proof (count_upd is_untimed l t r (wake r) E).
  destruct r as [| |[]| | | |]; cbn in *; try discriminate; lia.
Qed.

Lemma count_pos f l w r : nth_error l w = Some r -> f r = true -> 0 < count f l.
Proof.
  intros H Hf. assert (Hin : In r (filter f l)) by (apply filter_In; eauto using nth_error_In).
  unfold count. destruct (filter f l); [contradiction|cbn; lia].
Qed.
Lemma live_pos l w r : nth_error l w = Some r -> is_live r = true -> 0 < count is_live l.
Proof. apply count_pos. Qed.

Definition inc (b : bool) (n : nat) : nat := if b then S n else n.
Definition dec (b : bool) (n : nat) : nat := if b then n - 1 else n.

(* the counting argument: worker w goes from state old to x; a woken worker leaves the idle counter and a blocking
   one enters it, a thread that becomes live enters the thread counter and one that ceases to be leaves it; a worker
   may start an untimed wait only while live, before the drop and with the thread counter at most MIN *)
Lemma Inv_upd s w old x td n stt :
  Inv s -> nth_error (ws s) w = Some old -> is_woken x = is_blocked old ->
  length td <= length (todo s) + Nat.b2n (is_woken x) - Nat.b2n (is_woken old) ->
  (is_live x = false -> dropped s = true -> S MIN < active s) ->
  (is_untimed x = true -> is_untimed old = false /\ is_live old = true /\ dropped s = false /\ active s <= MIN) ->
  Inv {| todo := td; waiting := inc (is_blocked x) (dec (is_woken old) (waiting s));
         active := inc (negb (is_live old) && is_live x) (dec (is_live old && negb (is_live x)) (active s));
         dropped := dropped s; now := n; ws := upd (ws s) w x; started := stt |}.
Proof.
  intros (J1 & J2 & J3 & J3' & J4) Hn Hwb Htd Hmin Hunt. unfold Inv. cbn [todo waiting active dropped ws].
  pose proof (count_upd is_blocked _ _ _ x Hn) as Cb. pose proof (count_upd is_woken _ _ _ x Hn) as Cw.
  pose proof (count_upd is_live _ _ _ x Hn) as Cl. pose proof (count_upd is_untimed _ _ _ x Hn) as Cu.
  unfold Nat.b2n in Htd. repeat split.
  - rewrite Hwb in Cw. pose proof (count_pos is_woken _ _ _ Hn) as P. revert Cb Cw P.
    destruct (is_woken old), (is_blocked x); cbn [inc dec]; intros Cb Cw P; try specialize (P eq_refl); lia.
  - clear -J2 Cw Htd. lia.
  - intros Dr. specialize (J3 Dr). pose proof (count_pos is_live _ _ _ Hn) as P. revert Cl P.
    destruct (is_live old), (is_live x); cbn [inc dec negb andb]; intros Cl P; try specialize (P eq_refl); lia.
  - destruct (J3' H) as [M _]. destruct (is_live old), (is_live x); cbn [inc dec negb andb]; try lia; specialize (Hmin eq_refl H); lia.
  - destruct (J3' H) as [_ Z]. destruct (is_untimed x); [|lia]. destruct (Hunt eq_refl) as (_ & _ & Dr & _). congruence.
  - destruct (is_untimed x); [|lia]. destruct (Hunt eq_refl) as (Uo & Lo & Dr & Am).
    pose proof (untimed_lt_live _ _ _ Hn Lo Uo). rewrite Uo in Cu. specialize (J3 Dr). lia.
Qed.

Lemma pop_or_wait_inv s w r wt :
  nth_error (ws s) w = Some r -> (r = AtLock /\ wt = waiting s) \/ (exists b, r = Woken b /\ wt = waiting s - 1) ->
  Inv s -> Inv (pop_or_wait s w wt).
Proof.
  intros Hn Hr HI. pose proof HI as (_ & _ & _ & J3' & _).
  assert (Hp : is_blocked r = false /\ is_live r = true /\ is_untimed r = false /\ wt = dec (is_woken r) (waiting s)).
  { destruct Hr as [[-> ->]|[b [-> ->]]]; repeat split. }
  destruct Hp as (Hb & Hl & Hu & ->). assert (Hw1 : Nat.b2n (is_woken r) <= 1) by (destruct (is_woken r); cbn; lia).
  unfold pop_or_wait. destruct (todo s) as [|tk rest] eqn:Et.
  - (* register and wait; without a deadline only with the thread counter at most MIN, so (J3') before the drop *)
    pose proof (Inv_upd s w r (Blocked (MIN <? active s) (now s + IDLE)) [] (now s) (started s) HI Hn) as U.
    rewrite Hl in U. apply U; [now rewrite Hb|cbn; lia|discriminate|]. cbn [is_untimed]. rewrite Hu.
    destruct (Nat.ltb_spec MIN (active s)); [discriminate|]. intros _. repeat split; [|assumption].
    destruct (dropped s); [destruct (J3' eq_refl); lia|reflexivity].
  - pose proof (Inv_upd s w r (Running tk) rest (now s) (started s ++ [tk]) HI Hn) as U.
    rewrite Hl in U. apply U; [now rewrite Hb|rewrite Et; cbn [length is_woken Nat.b2n]; lia|discriminate|discriminate].
Qed.

Lemma step_inv s l s' : Inv s -> step true s l = Some s' -> Inv s'.
Proof.
  intros HI H. pose proof HI as (J1 & J2 & J3 & J3' & J4). destruct l; cbn [step] in H.
  - destruct (dropped s) eqn:Ed; [discriminate|]. specialize (J3 eq_refl).
    destruct (Nat.leb_spec (waiting s) (length (todo s))) as [Hle|Hgt].
    + (* a new thread is in none of the counted classes *)
      destruct w; inversion H; subst. unfold Inv; cbn [todo waiting active dropped ws now started set_ws].
      rewrite !count_app, !Nat.add_0_r. exact HI.
    + destruct (notify (ws s) w) as [l'|] eqn:En; inversion H; subst.
      unfold Inv; cbn [todo waiting active dropped ws now started set_ws]. rewrite app_length; cbn.
      destruct (notify_counts _ _ _ En) as [[Hz ->]|(Hb & Hw & Hl & Hu)]; repeat split; try lia; try (intros _; lia); try congruence.
  - destruct (nth_error (ws s) w) as [[[tk|]| | | | | |]|] eqn:En; try discriminate; injection H as <-.
    + apply (Inv_upd s w (Spawned (Some tk)) (Running tk)); auto; [cbn; lia|discriminate..].
    + apply (Inv_upd s w (Spawned None) AtLock); auto; [cbn; lia|discriminate..].
  - destruct (nth_error (ws s) w) as [[| | | |tk| |]|] eqn:En; try discriminate; injection H as <-.
    apply (Inv_upd s w (Running tk) AtLock); auto; [cbn; lia|discriminate..].
  - destruct (nth_error (ws s) w) as [[| | | | | |]|] eqn:En; try discriminate; injection H as <-.
    eapply pop_or_wait_inv; eauto.
  - destruct (nth_error (ws s) w) as [[| |tm d| | | |]|] eqn:En; try discriminate; injection H as <-.
    apply (Inv_upd s w (Blocked tm d) (Woken true)); auto; [cbn; lia|discriminate..].
  - destruct (nth_error (ws s) w) as [[| |[] d| | | |]|] eqn:En; try discriminate. destruct (d <=? now s); [|discriminate].
    injection H as <-. apply (Inv_upd s w (Blocked true d) (Woken false)); auto; [cbn; lia|discriminate..].
  - destruct (nth_error (ws s) w) as [[| | |r| | |]|] eqn:En; try discriminate.
    destruct (negb r && match todo s with [] => true | _ => false end) eqn:Ec; injection H as <-.
    + apply andb_true_iff in Ec as [_ Et]. destruct (todo s) eqn:Etodo; [|discriminate].
      apply (Inv_upd s w (Woken r) Exiting); auto; [cbn; lia|discriminate..].
    + eapply pop_or_wait_inv; eauto.
  - (* Exit: after the drop the guard keeps the thread counter above MIN *)
    destruct (nth_error (ws s) w) as [[| | | | | |]|] eqn:En; try discriminate.
    destruct (dropped s && (active s <=? S MIN)) eqn:Ec; [discriminate|]. injection H as <-.
    apply (Inv_upd s w Exiting Exited); auto; [cbn; lia| |discriminate].
    intros _ Hd. rewrite Hd in Ec. apply Nat.leb_gt in Ec. lia.
  - inversion H; subst. unfold Inv; cbn [todo waiting active dropped ws now started set_ws].
    rewrite count_map_wake_blocked, count_map_wake_woken, count_map_wake_untimed. repeat split; try lia; discriminate.
  - inversion H; subst. exact HI.
Qed.

Lemma init_inv : Inv init.
Proof.
  unfold Inv, init; cbn [todo waiting active dropped ws now started length].
  rewrite !count_repeat_false by reflexivity. repeat split; try lia; discriminate.
Qed.

Lemma run_preserves (I : st -> Prop) fixed : (forall s l s', I s -> step fixed s l = Some s' -> I s') ->
  forall ls s s', I s -> run fixed s ls = Some s' -> I s'.
Proof.
  intros HS. induction ls as [|l ls IH]; cbn; intros s s' HI H; [now injection H as <-|].
  destruct (step fixed s l) as [s1|] eqn:E; [|discriminate]. exact (IH _ _ (HS _ _ _ HI E) H).
Qed.

Theorem run_inv ls : forall s s', Inv s -> run true s ls = Some s' -> Inv s'.
Proof. exact (run_preserves Inv true step_inv ls). Qed.

Corollary reachable_inv ls s : run true init ls = Some s -> Inv s.
Proof. exact (run_inv ls init s init_inv). Qed.

(* C08 core: every queued connection has its own awake worker, whatever the schedule *)
Theorem queued_task_has_awake_worker ls s : run true init ls = Some s -> length (todo s) <= count is_woken (ws s).
Proof. intros H. now destruct (reachable_inv ls s H) as (_ & J2 & _). Qed.

(* ... and an awake worker's next step takes the head of the queue *)
Theorem woken_takes_head s w r tk rest : nth_error (ws s) w = Some (Woken r) -> todo s = tk :: rest ->
  exists s', step true s (Resume w) = Some s' /\ nth_error (ws s') w = Some (Running tk) /\ todo s' = rest.
Proof using BIG_big.
  intros Hn Ht. cbn [step]. rewrite Hn, Ht. rewrite andb_false_r. eexists; split; [reflexivity|].
  unfold pop_or_wait; rewrite Ht; cbn. split; [exact (nth_upd_some _ _ _ _ Hn)|reflexivity].
Qed.

(* C20 core: never more than MIN workers wait without a deadline *)
Theorem untimed_waiters_le_min ls s : run true init ls = Some s -> count is_untimed (ws s) <= MIN.
Proof. intros H. now destruct (reachable_inv ls s H) as (_ & _ & _ & _ & J4). Qed.
End TP.

(* the tree as found: five dispatches before any worker has re-acquired the lock strand the fifth *)
Example asfound_stranded :
  exists ls s, run nat 4 5 99 false (init nat 4) ls = Some s /\
    todo nat s = [5] /\ count nat (is_woken nat) (ws nat s) = 0 /\ count nat (is_blocked nat) (ws nat s) = 0.
Proof.
  exists [Start nat 0; Start nat 1; Start nat 2; Start nat 3; Lock nat 0; Lock nat 1; Lock nat 2; Lock nat 3;
          Dispatch nat 1 (Some 0); Dispatch nat 2 (Some 1); Dispatch nat 3 (Some 2); Dispatch nat 4 (Some 3); Dispatch nat 5 None;
          Resume nat 0; Resume nat 1; Resume nat 2; Resume nat 3].
  eexists. split; [vm_compute; reflexivity|]. vm_compute. auto.
Qed.
