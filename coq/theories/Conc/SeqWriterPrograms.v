(* Conc/SeqWriterPrograms.v — per-thread programs over the sequential-writer chain (Conc/SeqWriter.v):
   `uses`, `well_ordered` (a thread finishes its smaller writers before it touches a larger one, never touches a
   writer after dropping it, and drops every writer it uses), its closure under taking the tail, a boolean checker
   `wo_b` equivalent to it, the ownership conditions of a system of programs (`system_ok`), and what a system writes
   through a writer (`writes_of_owner`: only the owner's program counts). *)
From Coq Require Import List Arith Bool Lia.
Import ListNotations.
From TH Require Import Conc.SeqWriter Conc.SeqWriterFacts.

Local Arguments New {byte}.
Local Arguments DropW {byte}.
Local Arguments label_index {byte}.
Local Arguments is_drop {byte}.
Local Arguments wdata {byte}.
Local Arguments writes_of {byte}.

Section Programs.
Variable byte : Type.
Notation bytes := (list byte).
Notation label := (SeqWriter.label byte).
Implicit Types (l x y : label).

Definition prog := list label.
Implicit Types (p q a b : prog) (ps : list prog).

Definition uses p (j : nat) : Prop := exists l, In l p /\ label_index l = Some j.

Record well_ordered p : Prop := {
  wo_no_new : ~ In New p;
  (* before touching writer j the program has dropped every smaller writer it uses anywhere *)
  wo_smaller_first : forall a l b j j', p = a ++ l :: b -> label_index l = Some j -> j' < j -> uses p j' -> In (DropW j') a;
  (* nothing concerns a writer after its drop (in particular it is dropped at most once) *)
  wo_after_drop : forall a b j l, p = a ++ DropW j :: b -> In l b -> label_index l <> Some j;
  (* every writer the program uses is dropped by it *)
  wo_drops : forall j, uses p j -> In (DropW j) p }.

(* the program of the thread that creates the writers *)
Definition creator p : Prop := forall l, In l p -> l = New.

Lemma uses_nil j : ~ uses [] j.
Proof. intros (l & [] & _). Qed.

Lemma uses_cons l p j : uses (l :: p) j <-> label_index l = Some j \/ uses p j.
Proof.
  split.
  - intros (x & [<-|Hx] & Hi); [left; exact Hi|right; exists x; auto].
  - intros [H|(x & Hx & Hi)]; [exists l; cbn; auto|exists x; cbn; auto].
Qed.

Lemma uses_drop p j : In (DropW j) p -> uses p j.
Proof. intros H. exists (DropW j). auto. Qed.

Lemma creator_uses p j : creator p -> ~ uses p j.
Proof. intros Hc (l & Hl & Hi). rewrite (Hc l Hl) in Hi. discriminate. Qed.

Lemma creator_tail l p : creator (l :: p) -> l = New /\ creator p.
Proof. intros H. split; [apply H; left; reflexivity|intros x Hx; apply H; right; exact Hx]. Qed.

Lemma creator_repeat n : creator (repeat New n).
Proof. intros l Hl. exact (repeat_spec _ _ _ Hl). Qed.

Lemma wo_nil : well_ordered [].
Proof.
  constructor.
  - intros [].
  - intros a l b j j' E. destruct a; discriminate.
  - intros a b j l E. destruct a; discriminate.
  - intros j H. destruct (uses_nil j H).
Qed.

Lemma wo_drop_head j p : well_ordered (DropW j :: p) -> ~ uses p j.
Proof. intros H (x & Hx & Hi). exact (wo_after_drop _ H [] p j x eq_refl Hx Hi). Qed.

Lemma wo_tail l p : well_ordered (l :: p) -> well_ordered p.
Proof.
  intros H. constructor.
  - intros Hin. apply (wo_no_new _ H). right. exact Hin.
  - intros a x b j j' E Hx Hlt Hu.
    assert (Hin : In (DropW j') (l :: a)).
    { apply (wo_smaller_first _ H (l :: a) x b j j'); auto; [cbn; now rewrite E|apply uses_cons; auto]. }
    destruct Hin as [->|Hin]; [|exact Hin]. exfalso. exact (wo_drop_head j' p H Hu).
  - intros a b j x E Hin. apply (wo_after_drop _ H (l :: a) b j x); [cbn; now rewrite E|exact Hin].
  - intros j Hu.
    assert (Hin : In (DropW j) (l :: p)) by (apply (wo_drops _ H); apply uses_cons; auto).
    destruct Hin as [->|Hin]; [|exact Hin]. exfalso. exact (wo_drop_head j p H Hu).
Qed.

Lemma wo_head_index l p : well_ordered (l :: p) -> exists j, label_index l = Some j.
Proof.
  intros H. destruct (label_index l) as [j|] eqn:E; [eauto|].
  apply label_index_none in E. subst l. exfalso. apply (wo_no_new _ H). left. reflexivity.
Qed.

Lemma wo_head_least l p j j' : well_ordered (l :: p) -> label_index l = Some j -> uses (l :: p) j' -> j <= j'.
Proof.
  intros H Hl Hu. destruct (Nat.le_gt_cases j j') as [Hle|Hlt]; [exact Hle|].
  destruct (wo_smaller_first _ H [] l p j j' eq_refl Hl Hlt Hu).
Qed.

Lemma wo_head_drop_later l p j : well_ordered (l :: p) -> label_index l = Some j -> is_drop j l = false -> In (DropW j) p.
Proof.
  intros H Hl Hne.
  assert (Hin : In (DropW j) (l :: p)) by (apply (wo_drops _ H); apply uses_cons; auto).
  destruct Hin as [E|Hin]; [|exact Hin]. apply is_drop_true in E. congruence.
Qed.

Lemma wo_cons_intro l b j : label_index l = Some j -> well_ordered b ->
  (forall j', uses b j' -> j <= j') ->
  (if is_drop j l then ~ uses b j else In (DropW j) b) -> well_ordered (l :: b).
Proof.
  intros Hl Hb Hge Hd. constructor.
  - intros [E|Hin]; [subst l; discriminate|exact (wo_no_new _ Hb Hin)].
  - intros a x b2 k j' E Hx Hlt Hu. destruct a as [|y a']; cbn in E; injection E as E1 E2.
    + subst x. rewrite Hl in Hx. injection Hx as <-. exfalso.
      apply uses_cons in Hu as [Hu|Hu]; [rewrite Hl in Hu; injection Hu as Hu; lia|specialize (Hge _ Hu); lia].
    + subst y. apply uses_cons in Hu as [Hu|Hu].
      * rewrite Hl in Hu. injection Hu as <-. destruct (is_drop j l) eqn:Ed.
        -- left. now apply is_drop_true.
        -- right. apply (wo_smaller_first _ Hb a' x b2 k j E2 Hx Hlt). now apply uses_drop.
      * right. exact (wo_smaller_first _ Hb a' x b2 k j' E2 Hx Hlt Hu).
  - intros a b2 k x E Hin. destruct a as [|y a']; cbn in E; injection E as E1 E2.
    + subst l b2. cbn in Hl. injection Hl as <-. cbn in Hd. rewrite Nat.eqb_refl in Hd.
      intros Hx. apply Hd. exists x. auto.
    + exact (wo_after_drop _ Hb a' b2 k x E2 Hin).
  - intros k Hu. apply uses_cons in Hu as [Hu|Hu].
    + rewrite Hl in Hu. injection Hu as <-. destruct (is_drop j l) eqn:Ed.
      * left. now apply is_drop_true.
      * right. exact Hd.
    + right. exact (wo_drops _ Hb k Hu).
Qed.

Lemma wo_drop_once p j : well_ordered p -> length (filter (is_drop j) p) <= 1.
Proof.
  induction p as [|l p IH]; intros H; [cbn; lia|]. cbn [filter].
  destruct (is_drop j l) eqn:Ed; [|exact (IH (wo_tail l p H))].
  apply is_drop_true in Ed. subst l. rewrite filter_none; [cbn; lia|].
  apply Forall_forall. intros x Hx. destruct (is_drop j x) eqn:Ex; [|reflexivity].
  apply is_drop_true in Ex. subst x. exfalso. exact (wo_drop_head j p H (uses_drop p j Hx)).
Qed.

Definition idx_is (j : nat) l : bool := match label_index l with Some i => i =? j | None => false end.
Definition idx_ge (j : nat) l : bool := match label_index l with Some i => j <=? i | None => false end.
Definition uses_b p (j : nat) : bool := existsb (idx_is j) p.

Fixpoint wo_b p : bool :=
  match p with
  | [] => true
  | l :: b =>
      match label_index l with
      | None => false
      | Some j => forallb (idx_ge j) b && (if is_drop j l then negb (uses_b b j) else existsb (is_drop j) b) && wo_b b
      end
  end.

Lemma uses_b_spec p j : uses_b p j = true <-> uses p j.
Proof.
  unfold uses_b, uses. rewrite existsb_exists. split; intros (x & Hx & H); exists x; (split; [exact Hx|]).
  - unfold idx_is in H. destruct (label_index x) as [i|]; [|discriminate]. apply Nat.eqb_eq in H. now subst.
  - unfold idx_is. rewrite H. apply Nat.eqb_refl.
Qed.

Lemma has_drop_spec p j : existsb (is_drop j) p = true <-> In (DropW j) p.
Proof.
  rewrite existsb_exists. split.
  - intros (x & Hx & H). apply is_drop_true in H. now subst.
  - intros H. exists (DropW j). split; [exact H|]. now apply is_drop_true.
Qed.

Lemma idx_ge_spec p j : forallb (idx_ge j) p = true <-> ((forall j', uses p j' -> j <= j') /\ ~ In New p).
Proof.
  rewrite forallb_forall. split.
  - intros H. split.
    + intros j' (x & Hx & Hi). specialize (H x Hx). unfold idx_ge in H. rewrite Hi in H. now apply Nat.leb_le.
    + intros Hn. specialize (H _ Hn). discriminate.
  - intros (H & Hn) x Hx. unfold idx_ge. destruct (label_index x) as [i|] eqn:Ei.
    + apply Nat.leb_le. apply H. exists x. auto.
    + apply label_index_none in Ei. subst x. contradiction.
Qed.

Lemma wo_b_sound p : wo_b p = true -> well_ordered p.
Proof.
  induction p as [|l b IH]; intros H; [exact wo_nil|]. cbn [wo_b] in H.
  destruct (label_index l) as [j|] eqn:El; [|discriminate].
  apply andb_true_iff in H as (H & Hwo). apply andb_true_iff in H as (Hge & Hd).
  apply idx_ge_spec in Hge as (Hge & _).
  apply (wo_cons_intro l b j El (IH Hwo) Hge).
  destruct (is_drop j l).
  - apply negb_true_iff in Hd. intros Hu. apply uses_b_spec in Hu. congruence.
  - now apply has_drop_spec.
Qed.

Lemma wo_b_complete p : well_ordered p -> wo_b p = true.
Proof.
  induction p as [|l b IH]; intros H; [reflexivity|]. cbn [wo_b].
  destruct (wo_head_index l b H) as (j & El). rewrite El.
  rewrite (IH (wo_tail l b H)), andb_true_r. apply andb_true_iff. split.
  - apply idx_ge_spec. split.
    + intros j' Hu. apply (wo_head_least l b j j' H El). apply uses_cons. auto.
    + intros Hn. apply (wo_no_new _ H). right. exact Hn.
  - destruct (is_drop j l) eqn:Ed.
    + apply is_drop_true in Ed. subst l. apply negb_true_iff.
      destruct (uses_b b j) eqn:Eu; [|reflexivity]. apply uses_b_spec in Eu. destruct (wo_drop_head j b H Eu).
    + apply has_drop_spec. exact (wo_head_drop_later l b j H El Ed).
Qed.

(* no writer is used by two different programs (programs are identified by their position) *)
Definition disjoint ps : Prop :=
  forall t1 t2 p1 p2 j, nth_error ps t1 = Some p1 -> nth_error ps t2 = Some p2 -> uses p1 j -> uses p2 j -> t1 = t2.
Definition bounded (n : nat) ps : Prop := forall p j, In p ps -> uses p j -> j < n.
Definition all_owned (n : nat) ps : Prop := forall j, j < n -> exists p, In p ps /\ uses p j.

Record system_ok (n : nat) ps : Prop := {
  so_wo : forall p, In p ps -> well_ordered p;
  so_disjoint : disjoint ps;
  so_bounded : bounded n ps;
  so_owned : all_owned n ps }.

Lemma upd_split {A} (u : list A) t (e : A) : nth_error u t = Some e ->
  exists u1 u2, u = u1 ++ e :: u2 /\ forall e' : A, upd u t e' = u1 ++ e' :: u2.
Proof.
  intros H. destruct (nth_error_split u t H) as (u1 & u2 & -> & <-). clear H. exists u1, u2. split; [reflexivity|].
  intros e'. induction u1 as [|h u1 IH]; cbn; [reflexivity|now rewrite IH].
Qed.

Lemma writes_of_cons j l (a : list label) : writes_of j (l :: a) = wdata j l ++ writes_of j a.
Proof. reflexivity. Qed.

Lemma writes_of_concat_unused ps j : (forall q, In q ps -> ~ uses q j) -> writes_of j (concat ps) = [].
Proof.
  intros H. apply writes_of_none, Forall_forall. intros l Hl Hi.
  apply in_concat in Hl as (q & Hq & Hl). apply (H q Hq). exists l. auto.
Qed.

Lemma disjoint_split ps1 p ps2 j : disjoint (ps1 ++ p :: ps2) -> uses p j ->
  writes_of j (concat ps1) = [] /\ writes_of j (concat ps2) = [].
Proof.
  intros D U.
  assert (Hp : nth_error (ps1 ++ p :: ps2) (length ps1) = Some p).
  { rewrite nth_error_app2, Nat.sub_diag by lia. reflexivity. }
  split; apply writes_of_concat_unused; intros q H Uq; apply In_nth_error in H as [t1 H].
  - assert (Hlt : t1 < length ps1) by (apply nth_error_Some; congruence).
    assert (E : t1 = length ps1); [|lia].
    apply (D t1 (length ps1) q p j); auto. rewrite nth_error_app1 by exact Hlt. exact H.
  - assert (E : length ps1 + S t1 = length ps1); [|lia].
    apply (D (length ps1 + S t1) (length ps1) q p j); auto.
    rewrite nth_error_app2 by lia. replace (length ps1 + S t1 - length ps1) with (S t1) by lia. exact H.
Qed.

Lemma writes_of_owner ps t p j : disjoint ps -> nth_error ps t = Some p -> uses p j ->
  writes_of j (concat ps) = writes_of j p.
Proof.
  intros D Ht U. destruct (upd_split ps t p Ht) as (ps1 & ps2 & E & _). subst ps.
  rewrite concat_app. cbn [concat]. rewrite !writes_of_app.
  destruct (disjoint_split ps1 p ps2 j D U) as (-> & ->). now rewrite app_nil_r.
Qed.

End Programs.
