(* Http/FramingFacts.v — the framing decision of the repaired tree (taken apart in
   Http/FramingBodyFacts.v) by the Content-Length value, and exactly which values are refused (C16b). *)
From TH Require Import Base.Bytes Http.Response Http.Request Http.FramingBodyFacts.

Lemma header_value_skip n pre post :
  forallb (fun h' => negb (equiv n h')) pre = true -> header_value n (pre ++ post) = header_value n post.
Proof.
  unfold header_value, find_header. induction pre as [|a pre IH]; cbn [app find forallb]; [reflexivity|].
  intros [Pa P]%andb_true_iff. apply negb_true_iff in Pa. rewrite Pa. exact (IH P).
Qed.

Lemma header_value_none n hs :
  forallb (fun h' => negb (equiv n h')) hs = true -> header_value n hs = None.
Proof. intros P. now rewrite <- (app_nil_r hs), (header_value_skip n hs [] P). Qed.

Definition dec_value (v : bytes) : N := fold_left (fun a c => (a * 10 + dval c)%N) v 0%N.
(* a plain decimal number the server can represent: the boolean form of the condition of
   FramingBodyFacts.framing_fixed_rest (parse_dec_digits) *)
Definition cl_ok (v : bytes) : bool :=
  negb (beq v []) && forallb is_digit v && (dec_value v <? USIZE_BOUND)%N.

Lemma value_radix_digits v : forall acc, forallb is_digit v = true ->
  value_radix 10 dec_val acc v = Some (fold_left (fun a c => (a * 10 + dval c)%N) v acc).
Proof.
  induction v as [|c v IH]; intros acc H; cbn [value_radix fold_left forallb] in *; [reflexivity|].
  apply andb_true_iff in H as [Hc Hv]. unfold dec_val at 1. rewrite Hc. now apply IH.
Qed.

Lemma parse_dec_digits v : v <> [] -> forallb is_digit v = true ->
  parse_dec v = if (dec_value v <? USIZE_BOUND)%N then Some (dec_value v) else None.
Proof.
  intros N D. unfold parse_dec, parse_radix. destruct v as [|c v']; [congruence|].
  now rewrite (value_radix_digits _ 0%N D).
Qed.

Lemma framing_fixed hs :
  framing fixed hs =
  match header_value "Content-Length" hs with
  | None => framing_rest hs None
  | Some v => if cl_ok v then framing_rest hs (Some (dec_value v)) else FrBadContentLength
  end.
Proof.
  rewrite framing_eq. unfold checked_length, cl_ok. cbn [fix_d9 fixed].
  destruct (header_value "Content-Length" hs) as [[|c v']|]; [reflexivity| |reflexivity]. cbn [beq negb andb].
  destruct (forallb is_digit (c :: v')) eqn:D; [|reflexivity].
  rewrite (parse_dec_digits (c :: v')) by (congruence || exact D).
  now destruct (dec_value (c :: v') <? USIZE_BOUND)%N.
Qed.

Lemma framing_rest_not_bad hs cl0 : framing_rest hs cl0 <> FrBadContentLength.
Proof.
  unfold framing_rest. destruct (expectation hs); discriminate.
Qed.

(* C16b: the exact set of refused heads *)
Theorem bad_content_length hs :
  framing fixed hs = FrBadContentLength <->
  exists v, header_value "Content-Length" hs = Some v /\ cl_ok v = false.
Proof.
  rewrite framing_fixed. destruct (header_value "Content-Length" hs) as [v|].
  - destruct (cl_ok v) eqn:E.
    + split; [intros H; now apply framing_rest_not_bad in H|]. intros (v' & H & E'). congruence.
    + split; [exists v; auto|reflexivity].
  - split; [intros H; now apply framing_rest_not_bad in H|]. intros (v' & H & _). discriminate.
Qed.

Lemma cl_ok_false v :
  cl_ok v = false <-> v = [] \/ forallb is_digit v = false \/ (USIZE_BOUND <= dec_value v)%N.
Proof.
  unfold cl_ok. split.
  - intros H. destruct v as [|c v']; [auto|]. cbn [beq negb andb] in H.
    destruct (forallb is_digit (c :: v')); [|auto]. cbn [andb] in H. right; right. now apply N.ltb_ge.
  - intros [->|[H|H]]; [reflexivity| |].
    + rewrite H, andb_false_r. reflexivity.
    + apply N.ltb_ge in H. rewrite H. apply andb_false_r.
Qed.
