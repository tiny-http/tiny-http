(* Http/ServeStreamFacts.v — further bytes change the result of read_head only where it was "the
   stream ended first" (read_head_more): a head followed by further bytes parses to the same head
   (read_head_app), every cut strictly inside a complete head reads as "the stream ended first"
   (read_head_cut, C15(a)), and a line is incomplete iff the bytes hold no CR LF (read_line_aux_none). A parsed head
   strictly shortens the stream of pending bytes (HeadFacts.read_head_length) and no reader lengthens it
   (Http/StreamFacts.v); hence every iteration of serve_loop that continues strictly shortens the stream, and
   the result of serve_loop does not depend on the fuel once it exceeds the length of the stream (serve_loop_fuel;
   C14(c), that the fuel `S (length input)` of `serve` is never exhausted, is read off it in Props/C14.v). *)
From TH Require Import Base.Bytes Http.Request Http.Body Http.Serve
  Http.HeadFacts Http.StreamFacts Http.ServeFacts.
From Coq Require Import Lia.

Lemma read_line_aux_more acc p x l r t :
  read_line_aux acc p x = Some (l, r) -> read_line_aux acc p (x ++ t) = Some (l, r ++ t).
Proof.
  revert acc p; induction x as [|b x IH]; intros acc p; cbn [read_line_aux app]; [discriminate|].
  destruct (Ascii.eqb b LF && p).
  - intros [= <- <-]. reflexivity.
  - apply IH.
Qed.

Lemma read_line_more x l r t : read_line x = Some (l, r) -> read_line (x ++ t) = Some (l, r ++ t).
Proof. apply read_line_aux_more. Qed.

(* unless the stream ends inside the head, further bytes change nothing but what is left over *)
Lemma read_headers_more c t : forall fuel ver acc x fuel', (fuel <= fuel')%nat ->
  read_headers c fuel ver acc x = inl HeadEof \/
  read_headers c fuel' ver acc (x ++ t) =
  match read_headers c fuel ver acc x with inr (hs, r) => inr (hs, r ++ t) | inl e => inl e end.
Proof.
  induction fuel as [|f IH]; intros ver acc x fuel' Hf; [left; reflexivity|].
  destruct fuel' as [|f']; [lia|]. cbn [read_headers].
  destruct (read_line x) as [[l rest]|] eqn:El; [|left; reflexivity].
  rewrite (read_line_more _ _ _ t El).
  destruct (negb (all_ascii l)); [right; reflexivity|].
  destruct l as [|l0 l1]; [right; reflexivity|].
  destruct (parse_header _) as [h|]; [apply IH; lia|right; reflexivity].
Qed.

Lemma read_head_more c x t :
  read_head c x = HeadEof \/
  read_head c (x ++ t) =
  match read_head c x with HeadOk m url ver hs r => HeadOk m url ver hs (r ++ t) | e => e end.
Proof.
  unfold read_head. destruct (read_line x) as [[l r]|] eqn:El; [|left; reflexivity].
  rewrite (read_line_more _ _ _ t El). destruct (negb (all_ascii l)); [right; reflexivity|].
  destruct (parse_request_line (trim l)) as [[[m u] v]|]; [|right; reflexivity].
  destruct (read_headers_more c t (S (List.length r)) v [] r (S (List.length (r ++ t)))) as [E|E];
    [rewrite app_length; lia|left; now rewrite E|right; rewrite E].
  pose proof (read_headers_progress c (S (List.length r)) v [] r) as P.
  destruct (read_headers c (S (List.length r)) v [] r) as [[m' u' v' hs' r'| | | |v']|[hs r']];
    try reflexivity.
  (* left is the case `inl (HeadOk …)`, which the header loop never answers *)
  now elim (P m' u' v' hs' r').
Qed.

Theorem read_head_app c x m url ver hs rest t :
  read_head c x = HeadOk m url ver hs rest -> read_head c (x ++ t) = HeadOk m url ver hs (rest ++ t).
Proof. intros H. destruct (read_head_more c x t) as [E|E]; [congruence|]. now rewrite E, H. Qed.

(* the head of x ++ t ends strictly after x: fewer than |t| bytes follow it *)
Theorem read_head_cut c x t m url ver hs rest :
  read_head c (x ++ t) = HeadOk m url ver hs rest -> (List.length rest < List.length t)%nat ->
  read_head c x = HeadEof.
Proof.
  intros H Hl. destruct (read_head_more c x t) as [E|E]; [exact E|]. rewrite H in E.
  destruct (read_head c x); try discriminate. injection E as _ _ _ _ ->. rewrite app_length in Hl. lia.
Qed.

Corollary read_head_proper_prefix c x t m url ver hs :
  read_head c (x ++ t) = HeadOk m url ver hs [] -> t <> [] -> read_head c x = HeadEof.
Proof. intros H Ht. apply (read_head_cut c x t m url ver hs [] H). destruct t; [contradiction|cbn; lia]. Qed.

Definition has_crlf (x : bytes) : Prop := exists a b, x = a ++ CR :: LF :: b.

Lemma has_crlf_cons b0 x : has_crlf (b0 :: x) <-> (b0 = CR /\ exists b, x = LF :: b) \/ has_crlf x.
Proof.
  unfold has_crlf. split.
  - intros (a & b & H). destruct a as [|a0 a]; cbn [app] in H.
    + injection H as -> ->. left. eauto.
    + injection H as -> ->. right. eauto.
  - intros [[-> [b ->]]|(a & b & ->)]; [exists [], b|exists (b0 :: a), b]; reflexivity.
Qed.

Lemma read_line_aux_none acc p x :
  read_line_aux acc p x = None <-> ~ (p = true /\ exists b, x = LF :: b) /\ ~ has_crlf x.
Proof.
  revert acc p; induction x as [|b0 x IH]; intros acc p; cbn [read_line_aux].
  - split; [intros _|reflexivity]. split; [intros [_ [b H]]; discriminate|].
    intros (a & b & H). destruct a; discriminate.
  - destruct (Ascii.eqb b0 LF && p) eqn:E.
    + apply andb_true_iff in E as [->%Ascii.eqb_eq ->]. split; [discriminate|]. intros [H _]. destruct H. eauto.
    + assert (B : ~ (p = true /\ exists b, b0 :: x = LF :: b)).
      { intros [-> [b [= -> _]]]. discriminate E. }
      rewrite IH, has_crlf_cons, Ascii.eqb_eq. tauto.
Qed.

Definition slen (st : stream) : nat := List.length (sbytes st).

Lemma adv_slen st st' : advanced st st' -> (slen st' <= slen st)%nat.
Proof. intros [_ [used H]]. unfold slen. rewrite H, app_length. lia. Qed.

Lemma do_reads_adv c reads : forall r st al acc e, advanced st (snd (fst (do_reads c reads r st al acc e))).
Proof.
  induction reads as [|[m n] t IH]; intros r st al acc e; cbn [do_reads]; [apply adv_refl|].
  match goal with |- context [take c ?fu m n r st al acc] =>
    pose proof (take_adv c fu m n r st al acc) as H;
    destruct (take c fu m n r st al acc) as [[[[acc1 e1] r1] st1] al1] end.
  cbn [fst snd] in H. destruct e1; try exact H. eapply adv_trans; [exact H|apply IH].
Qed.

Lemma handle_adv c date act m ver hs expects rd st1 al1 :
  advanced st1 (h_st4 (handle c date act m ver hs expects rd st1 al1)).
Proof.
  destruct (handle_reads c date act m ver hs expects rd st1 al1)
    as (got & e & rd2 & st2 & al2 & rd3 & st3 & Er & Eu & Ed).
  pose proof (do_reads_adv c (a_reads act) rd st1 al1 [] EndCount) as H2. rewrite Er in H2.
  pose proof (do_reads_adv c (finish_reads (a_finish act)) rd2 st2 al2 got e) as H3. rewrite Eu in H3.
  pose proof (body_drop_adv c rd3 st3 (h_al3 (handle c date act m ver hs expects rd st1 al1))) as H4.
  rewrite Ed in H4. exact (adv_trans _ _ _ H2 (adv_trans _ _ _ H3 H4)).
Qed.

Lemma built_of_adv kind rest eof al rd st1 al1 :
  built_of kind rest eof al = inl (Some (rd, st1, al1)) -> advanced (mkS rest eof) st1.
Proof.
  destruct kind as [| |n| |]; cbn [built_of]; try (intros [= _ <- _]; apply adv_refl).
  destruct (n <=? len rest)%N; [|destruct eof; discriminate].
  intros [= _ <- _]. split; [reflexivity|]. exists (firstn (N.to_nat n) rest). symmetry. apply firstn_skipn.
Qed.

Theorem serve_step_cont c date script dflt st wire reqs al ok script' st' wire' reqs' al' ok' :
  serve_step c date script dflt st wire reqs al ok = SCont script' st' wire' reqs' al' ok' ->
  seof st' = seof st /\ (slen st' < slen st)%nat.
Proof.
  unfold serve_step. destruct (read_head c (sbytes st)) as [m url ver hs rest| | | |ver] eqn:Eh;
    try discriminate; try (destruct (render _ _ _ _ _ _); discriminate).
  apply read_head_length in Eh. fold (slen st) in Eh.
  destruct (framing c hs) as [kind bl expects| |]; try (destruct (render _ _ _ _ _ _); discriminate).
  destruct (built_of kind rest (seof st) al) as [[[[rd st1] al1]|]|e] eqn:Eb; try discriminate.
  apply built_of_adv in Eb. intros E.
  assert (H : advanced st1 st').
  { revert E. destruct (ver_gt_11 ver) eqn:Hv.
    - unfold deliver_step. rewrite Hv. destruct (fix_d5 c); [|discriminate]. destruct (render _ _ _ _ _ _).
      pose proof (body_drop_adv c rd st1 al1) as H. destruct (body_drop c rd st1 al1) as [st2 al2].
      intros [= _ <- _ _ _ _]. exact H.
    - rewrite deliver_served by exact Hv.
      destruct (match h_end _ with EndBlock => true | _ => false end); [discriminate|].
      destruct (last_request ver hs); [discriminate|]. intros [= _ <- _ _ _ _]. apply handle_adv. }
  pose proof (adv_trans _ _ _ Eb H) as [He Hu]. split; [exact He|].
  apply adv_slen in Eb, H. unfold slen at 2 in Eb. cbn [sbytes] in Eb. lia.
Qed.

Corollary serve_step_progress c date script dflt st wire reqs al ok script' st' wire' reqs' al' ok' :
  serve_step c date script dflt st wire reqs al ok = SCont script' st' wire' reqs' al' ok' ->
  (slen st' < slen st)%nat.
Proof. intros E. now apply serve_step_cont in E. Qed.

Theorem serve_loop_fuel c date dflt : forall f1 f2 script st wire reqs al ok,
  (slen st < f1)%nat -> (slen st < f2)%nat ->
  serve_loop c date f1 script dflt st wire reqs al ok = serve_loop c date f2 script dflt st wire reqs al ok.
Proof.
  induction f1 as [|f1 IH]; intros f2 script st wire reqs al ok H1 H2; [lia|].
  destruct f2 as [|f2]; [lia|]. rewrite !serve_loop_S.
  destruct (serve_step c date script dflt st wire reqs al ok) as [o|script' st' wire' reqs' al' ok'] eqn:E;
    cbn [run_step]; [reflexivity|].
  apply serve_step_progress in E. apply IH; lia.
Qed.
