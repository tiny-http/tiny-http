(* Conc/MsgQueueCalls.v — "each token releases a DISTINCT call" for Conc/MsgQueue.v (C17).
   A call of receiver t is identified, from outside the model, by (t, k): k = the number of CallPop/CallTry/CallTimed
   labels of t among the labels up to and including the step in question (the k-th call of receiver t).
   For the token log of MsgQueueFacts.v (entries (position, receiver)) the call identities are pairwise distinct:
   no call is released twice, so n tokens consumed = n different calls returned empty-handed.
   The reason: the step that consumes a token leaves its receiver Idle, and an Idle receiver can only act again by
   starting a new call. *)
From Coq Require Import List Arith Lia.
Import ListNotations.
From TH Require Import Conc.MsgQueue Conc.MsgQueueFacts.

Local Arguments rs {V}.
Local Arguments CallPop {V}.
Local Arguments CallTry {V}.
Local Arguments CallTimed {V}.

Section Calls.
Variable V : Type.
Variable MS : nat.
Hypothesis MS_pos : 0 < MS.
Variable EPS : nat.
Notation st := (MsgQueue.st V).
Notation label := (MsgQueue.label V).
Notation step := (MsgQueue.step V MS EPS).
Notation run := (MsgQueue.run V MS EPS).
Notation actor := (MsgQueueFacts.actor V).
Notation released_by := (MsgQueueFacts.released_by V).
Notation token_returns := (MsgQueueFacts.token_returns V MS EPS).

(* l starts a call of receiver t *)
Definition is_call (t : nat) (l : label) : bool :=
  match l with CallPop u | CallTry u | CallTimed u _ => u =? t | _ => false end.
Definition ncalls (t : nat) (ls : list label) : nat := length (filter (is_call t) ls).
(* the call that the log entry (position i, receiver t) of a run with labels ls belongs to *)
Definition call_of (ls : list label) (e : nat * nat) : nat * nat :=
  (snd e, ncalls (snd e) (firstn (S (fst e)) ls)).

Lemma ncalls_snoc t pre l : ncalls t (pre ++ [l]) = ncalls t pre + (if is_call t l then 1 else 0).
Proof. unfold ncalls. rewrite filter_app, app_length. cbn. destruct (is_call t l); reflexivity. Qed.

(* receiver t is inside a call *)
Definition nonidle (r : rstate) : bool := match r with Idle => false | _ => true end.
Definition in_call (s : st) (t : nat) : bool := match nth_error (rs s) t with Some r => nonidle r | None => false end.

Lemma in_call_upd_idle (s s' : st) t : rs s' = upd (rs s) t Idle -> in_call s' t = false.
Proof. unfold in_call. intros ->. revert t. induction (rs s) as [|a l IH]; intros [|t]; cbn; auto. Qed.

Lemma blocked_nonidle r : is_blocked r = true -> nonidle r = true.
Proof. destruct r; auto. Qed.

Lemma step_rs fixed s l s' : step fixed s l = Some s' ->
  rs s' = rs s \/
  exists t0 old x, nth_error (rs s) t0 = Some old /\ rs s' = upd (rs s) t0 x /\
                   (nonidle x = true -> nonidle old = true \/ is_call t0 l = true).
Proof.
  (* SPush, SUnblock, STake, STryEmpty, SMove, SEmpty, STick; STryEmpty and STick leave rs as it is *)
  intros H.
  destruct (step_rules _ _ _ _ _ _ _ H) as [v w l' Hn|w l' Hn|l t r s' _ Hn _ Ht|t|l t r r' Hn Hm|t to t0 b rem T Hn _ _|d _];
    cbn [rs set_rs ret_empty_timed]; auto.
  (* SPush, SUnblock: notify wakes nobody, or a blocked receiver *)
  1, 2: destruct (notify_cases _ _ _ Hn) as [[_ ->]|(t & r & Hr & Hb & ->)]; [auto|].
  1, 2: right; exists t, r, (wake r); auto using blocked_nonidle.
  - right. exists t, r, Idle. destruct (take_ret_cases _ _ _ _ Ht) as (_ & _ & _ & _ & Hrs & _). repeat split; auto. discriminate.
  - right. exists t, r, r'. repeat split; auto. intros _. destruct Hm; cbn; auto using Nat.eqb_refl, blocked_nonidle.
  - right. exists t, (TWoken to t0 b rem T), Idle. auto.
Qed.

Lemma enters_call_by_call fixed s l s' t : step fixed s l = Some s' ->
  in_call s t = false -> in_call s' t = true -> is_call t l = true.
Proof.
  intros H H0 H1. unfold in_call in *. destruct (step_rs _ _ _ _ H) as [Hrs|(t0 & old & x & Hn & Hrs & Himp)]; rewrite Hrs in H1.
  - congruence.
  - destruct (Nat.eq_dec t t0) as [->|Hne].
    + rewrite (nth_upd_same _ _ _ _ Hn) in H1. rewrite Hn in H0. destruct (Himp H1) as [Ho|Hc]; [congruence|exact Hc].
    + rewrite nth_upd_other in H1 by congruence. congruence.
Qed.

Lemma actor_in_call fixed s l s' t : step fixed s l = Some s' -> actor l = Some t ->
  is_call t l = true \/ in_call s t = true.
Proof.
  intros H Ha. destruct l; cbn in Ha; inversion Ha; subst; cbn [is_call]; try (left; apply Nat.eqb_refl).
  right. cbn [MsgQueue.step] in H. unfold in_call.
  destruct (nth_error (rs s) t) as [[| | | |]|]; try discriminate; reflexivity.
Qed.

(* the invariant: identities logged so far are calls already begun, and strictly earlier ones for a receiver that is
   inside a call now *)
Definition InvK (pre : list label) (s : st) (ids : list (nat * nat)) : Prop :=
  forall t k, In (t, k) ids -> k + (if in_call s t then 1 else 0) <= ncalls t pre.

(* the identity of a call released at step l counts the calls up to and including l, whatever follows *)
Lemma call_of_here pre l rest t : call_of (pre ++ l :: rest) (length pre, t) = (t, ncalls t (pre ++ [l])).
Proof. unfold call_of. cbn [fst snd]. now rewrite <- Nat.add_1_r, firstn_app_2. Qed.

Lemma step_K fixed pre s ids l rest s' : InvK pre s ids -> NoDup ids -> step fixed s l = Some s' ->
  let new := map (call_of (pre ++ l :: rest)) (released_by s s' (length pre) l) in
  InvK (pre ++ [l]) s' (ids ++ new) /\ NoDup (ids ++ new).
Proof.
  intros HI ND H new.
  assert (OLD : InvK (pre ++ [l]) s' ids).
  { intros t k Hin. specialize (HI t k Hin). rewrite ncalls_snoc.
    destruct (in_call s t) eqn:E0, (in_call s' t) eqn:E1; try lia.
    rewrite (enters_call_by_call _ _ _ _ _ H E0 E1). lia. }
  subst new. destruct (released_by_step _ _ _ _ _ _ _ (length pre) H) as [[-> _]|(t0 & Ha & -> & _ & Hrs)]; cbn [map].
  - rewrite app_nil_r. split; [exact OLD|exact ND].
  - rewrite call_of_here. split.
    + (* the receiver that consumed the token is Idle afterwards *)
      intros t k Hin. apply in_app_iff in Hin as [Hin|[[= <- <-]|[]]]; [exact (OLD t k Hin)|].
      rewrite (in_call_upd_idle _ _ _ Hrs). lia.
    + (* and it was inside a call, or l begins one *)
      apply (NoDup_Add (Add_app _ ids [])). rewrite app_nil_r. split; [exact ND|]. intros Hin. specialize (HI _ _ Hin). rewrite ncalls_snoc in HI.
      destruct (actor_in_call _ _ _ _ _ H Ha) as [Hc|Hc]; rewrite Hc in HI; lia.
Qed.

Lemma run_K fixed ls : forall pre s0 ids s log,
  InvK pre s0 ids -> NoDup ids -> run fixed s0 ls = Some s -> token_returns fixed s0 (length pre) ls = Some log ->
  NoDup (ids ++ map (call_of (pre ++ ls)) log).
Proof.
  induction ls as [|l ls IH]; cbn; intros pre s0 ids s log HI ND H Hd.
  - inversion Hd; subst. cbn. now rewrite app_nil_r.
  - destruct (step fixed s0 l) as [s1|] eqn:E; [|discriminate].
    destruct (token_returns fixed s1 (S (length pre)) ls) as [d|] eqn:Ed; [|discriminate]. inversion Hd; subst log.
    destruct (step_K _ _ _ _ _ ls _ HI ND E) as [HI' ND'].
    specialize (IH (pre ++ [l]) _ _ _ d HI' ND' H). rewrite app_length, Nat.add_1_r, <- (app_assoc pre) in IH.
    rewrite map_app, app_assoc. exact (IH Ed).
Qed.

End Calls.
