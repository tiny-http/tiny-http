(* Http/HeadFacts.v — the head parser (read_head / read_headers) on streams given line by line:
   step lemmas, classification of bad lines (C16a, C10), and the abstract well-formed request head
   with its rendering and the round trip through read_head (C02). *)
From TH Require Import Base.Bytes Base.BytesFacts Http.Response Http.Request Http.LineFacts.
From Coq Require Import Lia.
Open Scope char_scope.

Lemma read_headers_line c f ver acc x l rest :
  read_line x = Some (l, rest) -> all_ascii l = true -> l <> [] ->
  read_headers c (S f) ver acc x =
  match parse_header (if fix_d8 c then trim_end l else trim l) with
  | Some h => read_headers c f ver (h :: acc) rest
  | None => inl (HeadBadHeader ver)
  end.
Proof.
  intros R A N. cbn [read_headers]. rewrite R, A. cbn [negb]. destruct l; [congruence|reflexivity].
Qed.

Lemma read_headers_end c f ver acc x rest :
  read_line x = Some ([], rest) -> read_headers c (S f) ver acc x = inr (frev acc, rest).
Proof. intros R. cbn [read_headers]. rewrite R. reflexivity. Qed.

Lemma read_headers_nonascii c f ver acc x l rest :
  read_line x = Some (l, rest) -> all_ascii l = false ->
  read_headers c (S f) ver acc x = inl HeadNonAscii.
Proof. intros R A. cbn [read_headers]. rewrite R, A. reflexivity. Qed.

Lemma read_headers_eof c f ver acc x : read_line x = None -> read_headers c f ver acc x = inl HeadEof.
Proof. intros R. destruct f; cbn [read_headers]; [reflexivity|]. now rewrite R. Qed.

Lemma read_head_line c x l rest :
  read_line x = Some (l, rest) -> all_ascii l = true ->
  read_head c x = match parse_request_line (trim l) with
                  | None => HeadBadLine
                  | Some (m, u, ver) =>
                      match read_headers c (S (List.length rest)) ver [] rest with
                      | inl e => e
                      | inr (hs, rest') => HeadOk m u ver hs rest'
                      end
                  end.
Proof. intros R A. unfold read_head. now rewrite R, A. Qed.

Lemma read_head_eof c x : read_line x = None -> read_head c x = HeadEof.
Proof. intros R. unfold read_head. now rewrite R. Qed.

Lemma read_headers_progress c : forall fuel ver acc x,
  match read_headers c fuel ver acc x with
  | inr (_, r) => (List.length r < List.length x)%nat
  | inl e => forall m u v hs r, e <> HeadOk m u v hs r
  end.
Proof.
  induction fuel as [|f IH]; intros ver acc x; cbn [read_headers]; [discriminate|].
  destruct (read_line x) as [[l rest]|] eqn:RL; [|discriminate].
  pose proof (read_line_length _ _ _ RL) as L.
  destruct (negb (all_ascii l)); [discriminate|].
  destruct l as [|b l']; [exact L|].
  destruct (parse_header _) as [h|]; [|discriminate].
  specialize (IH ver (h :: acc) rest).
  destruct (read_headers c f ver (h :: acc) rest) as [e|[hs r]]; [exact IH|lia].
Qed.

Lemma read_head_length c x m u v hs rest :
  read_head c x = HeadOk m u v hs rest -> (List.length rest < List.length x)%nat.
Proof.
  unfold read_head. destruct (read_line x) as [[l r1]|] eqn:RL; [|discriminate].
  pose proof (read_line_length _ _ _ RL) as L.
  destruct (negb (all_ascii l)); [discriminate|].
  destruct (parse_request_line (trim l)) as [[[m' u'] v']|]; [|discriminate].
  pose proof (read_headers_progress c (S (List.length r1)) v' [] r1) as P.
  destruct (read_headers c (S (List.length r1)) v' [] r1) as [e|[hs' r']].
  - (* the header loop never answers `inl (HeadOk …)` *)
    intros ->. now elim (P m u v hs rest).
  - intros H. injection H as _ _ _ _ <-. lia.
Qed.

(* C16a, the header lines that are refused: no colon at all, or a whitespace byte somewhere before
   the first colon (leading whitespace = obsolete folding, whitespace inside the name, whitespace
   between the name and the colon) *)
Definition bad_header_line (l : bytes) : bool :=
  match split_first ":" l with
  | (n, Some _) => existsb is_ws n
  | (_, None) => true
  end.

Lemma parse_header_none l : parse_header l = None <-> bad_header_line l = true.
Proof.
  unfold parse_header, bad_header_line. destruct (split_first ":" l) as [n [r|]].
  - destruct (existsb is_ws n); split; congruence.
  - split; reflexivity.
Qed.

Lemma good_line_parsed l : bad_header_line l = false ->
  exists n v, split_first ":" l = (n, Some v) /\ parse_header (trim_end l) = Some (mkH n (trim v)).
Proof.
  intros H. rewrite parse_header_trim_end. unfold bad_header_line in H. unfold parse_header.
  destruct (split_first ":" l) as [n [r|]]; [|discriminate]. exists n, r. now rewrite H.
Qed.

Lemma bad_no_colon l : nosep ":" l = true -> bad_header_line l = true.
Proof. intros H. unfold bad_header_line. now rewrite (split_first_nosep _ _ H). Qed.

Lemma bad_ws_before_colon n r : nosep ":" n = true -> existsb is_ws n = true -> bad_header_line (n ++ ":" :: r) = true.
Proof. intros H W. unfold bad_header_line. now rewrite (split_first_app _ _ _ H). Qed.

Lemma bad_leading_ws c l : is_ws c = true -> bad_header_line (c :: l) = true.
Proof.
  intros W. unfold bad_header_line. cbn [split_first].
  destruct (Ascii.eqb c ":") eqn:E; [apply Ascii.eqb_eq in E; subst c; discriminate|].
  destruct (split_first ":" l) as [n [r|]]; [|reflexivity]. cbn [existsb]. now rewrite W.
Qed.

Lemma bad_line_nil : bad_header_line [] = true.
Proof. reflexivity. Qed.

Definition lines (ls : list bytes) : bytes := List.concat (map (fun l => l ++ CRLF) ls).
Definition good_line (l : bytes) : bool := all_ascii l && no_crlf l && negb (bad_header_line l).
(* the default is never reached on a good_line *)
Definition hdr_of (l : bytes) : header :=
  match parse_header l with Some h => h | None => mkH [] [] end.

Lemma lines_cons l ls x : lines (l :: ls) ++ x = l ++ CRLF ++ lines ls ++ x.
Proof. unfold lines. cbn [map List.concat]. now rewrite <- !app_assoc. Qed.

Lemma lines_length ls : (List.length ls <= List.length (lines ls))%nat.
Proof.
  induction ls as [|l ls IH]; [cbn; lia|]. unfold lines in *. cbn [map List.concat List.length].
  rewrite !app_length. cbn [CRLF List.length]. lia.
Qed.

Lemma parse_header_not_bad l : bad_header_line l = false -> parse_header (trim_end l) = Some (hdr_of l).
Proof.
  intros B. rewrite parse_header_trim_end. unfold hdr_of.
  destruct (parse_header l) eqn:E; [reflexivity|]. apply parse_header_none in E. congruence.
Qed.

Lemma read_headers_lines goods : forall f ver acc x', forallb good_line goods = true ->
  read_headers fixed (List.length goods + f) ver acc (lines goods ++ x')
  = read_headers fixed f ver (rev (map hdr_of goods) ++ acc) x'.
Proof.
  induction goods as [|l goods IH]; intros f ver acc x' G; [reflexivity|].
  cbn [forallb] in G. apply andb_true_iff in G as [Gl G].
  unfold good_line in Gl. apply andb_true_iff in Gl as [[Ga Gc]%andb_true_iff Gb%negb_true_iff].
  rewrite lines_cons. cbn [List.length plus].
  rewrite (read_headers_line fixed _ ver acc _ l _ (read_line_app l _ Gc) Ga) by (intros ->; discriminate).
  cbn [fix_d8 fixed]. rewrite (parse_header_not_bad l Gb), (IH _ _ _ _ G). cbn [map rev]. now rewrite <- app_assoc.
Qed.

Lemma read_head_lines rl m u ver goods x' :
  all_ascii rl = true -> no_crlf rl = true -> parse_request_line (trim rl) = Some (m, u, ver) ->
  forallb good_line goods = true ->
  exists f,
  read_head fixed (rl ++ CRLF ++ lines goods ++ x')
  = match read_headers fixed (S f) ver (rev (map hdr_of goods)) x' with
    | inl e => e
    | inr (hs, rest') => HeadOk m u ver hs rest'
    end.
Proof.
  intros A C P G. pose proof (lines_length goods) as L.
  exists (List.length (lines goods) - List.length goods + List.length x')%nat.
  rewrite (read_head_line fixed _ rl _ (read_line_app _ _ C) A), P, app_length.
  replace (S (List.length (lines goods) + List.length x'))
    with (List.length goods + S (List.length (lines goods) - List.length goods + List.length x'))%nat by lia.
  rewrite (read_headers_lines goods _ ver [] x' G). now rewrite app_nil_r.
Qed.

(* C16a on the head *)
Lemma read_head_bad_header rl m u ver goods bad tail :
  all_ascii rl = true -> no_crlf rl = true -> parse_request_line (trim rl) = Some (m, u, ver) ->
  forallb good_line goods = true ->
  all_ascii bad = true -> no_crlf bad = true -> bad <> [] -> bad_header_line bad = true ->
  read_head fixed (rl ++ CRLF ++ lines goods ++ bad ++ CRLF ++ tail) = HeadBadHeader ver.
Proof.
  intros A C P G Ab Cb Nb Bb.
  destruct (read_head_lines rl m u ver goods (bad ++ CRLF ++ tail) A C P G) as (f & ->).
  rewrite (read_headers_line fixed f ver _ _ bad tail (read_line_app _ _ Cb) Ab Nb).
  cbn [fix_d8 fixed]. rewrite parse_header_trim_end. apply parse_header_none in Bb. now rewrite Bb.
Qed.

Lemma read_head_complete rl m u ver goods tail :
  all_ascii rl = true -> no_crlf rl = true -> parse_request_line (trim rl) = Some (m, u, ver) ->
  forallb good_line goods = true ->
  read_head fixed (rl ++ CRLF ++ lines goods ++ CRLF ++ tail) = HeadOk m u ver (map hdr_of goods) tail.
Proof.
  intros A C P G.
  destruct (read_head_lines rl m u ver goods (CRLF ++ tail) A C P G) as (f & ->).
  rewrite (read_headers_end fixed f ver _ _ tail (read_line_app [] tail eq_refl)).
  now rewrite frev_rev, rev_involutive.
Qed.

(* C02: the abstract well-formed request head and its rendering *)
Record req_head := mkRq {
  rq_method : bytes; rq_target : bytes; rq_version : version;
  rq_headers : list (bytes * bytes) }.

(* a superset of tchar and of VCHAR *)
Definition is_vis (c : ascii) : bool := is_ascii c && negb (is_ws c).
Definition wf_token (x : bytes) : bool := negb (beq x []) && forallb is_vis x.
Definition wf_name (n : bytes) : bool := wf_token n && nosep ":" n.
(* field-content: ASCII without CR and LF, neither beginning nor ending with whitespace; may be
   empty, may contain blanks and colons inside *)
Definition is_fchar (c : ascii) : bool := is_ascii c && negb (Ascii.eqb c CR) && negb (Ascii.eqb c LF).
Definition wf_value (v : bytes) : bool :=
  forallb is_fchar v &&
  match v with [] => true | c :: _ => negb (is_ws c) && negb (is_ws (last v c)) end.
Definition wf_field (f : bytes * bytes) : bool := wf_name (fst f) && wf_value (snd f).
Definition wf_version (v : version) : bool :=
  ver_eq v (0, 9)%N || ver_eq v (1, 0)%N || ver_eq v (1, 1)%N.
Definition wf_head (r : req_head) : bool :=
  wf_token (rq_method r) && wf_token (rq_target r) && wf_version (rq_version r)
  && forallb wf_field (rq_headers r).

(* optional whitespace: SP / HTAB only (the same set as ClientSpec.is_ows, which this file does not import) *)
Definition is_ows (c : ascii) : bool := Ascii.eqb c SP || Ascii.eqb c HT.
Definition wf_ows (ows : list (bytes * bytes)) : bool :=
  forallb (fun p => forallb is_ows (fst p) && forallb is_ows (snd p)) ows.

Definition render_version (v : version) : bytes :=
  s "HTTP/" ++ print_dec (fst v) ++ s "." ++ print_dec (snd v).
Definition render_field (f : bytes * bytes) (o : bytes * bytes) : bytes :=
  fst f ++ ":" :: fst o ++ snd f ++ snd o.
(* the i-th header gets the i-th pair of blanks (none when the list is shorter) *)
Fixpoint render_fields (hs : list (bytes * bytes)) (ows : list (bytes * bytes)) : bytes :=
  match hs with
  | [] => []
  | f :: t => render_field f (hd ([], []) ows) ++ CRLF ++ render_fields t (tl ows)
  end.
Definition render_req_head (r : req_head) (ows : list (bytes * bytes)) : bytes :=
  rq_method r ++ SP :: rq_target r ++ SP :: render_version (rq_version r) ++ CRLF
  ++ render_fields (rq_headers r) ows ++ CRLF.
Definition field_header (f : bytes * bytes) : header := mkH (fst f) (snd f).

Lemma ows_blank o : forallb is_ows o = true -> forallb is_ws o = true /\ forallb line_byte o = true.
Proof.
  assert (C : forall c, is_ows c = true -> c = SP \/ c = HT).
  { intros c [E|E]%orb_true_iff; apply Ascii.eqb_eq in E; auto. }
  intros H. split; revert H; apply forallb_impl; intros c [-> | ->]%C; reflexivity.
Qed.

Lemma fchar_line_byte c : is_fchar c = true -> line_byte c = true.
Proof. unfold is_fchar, line_byte. intros [[-> _]%andb_true_iff ->]%andb_true_iff. reflexivity. Qed.

Lemma vis_not c d : is_vis c = true -> is_ws d = true -> negb (Ascii.eqb c d) = true.
Proof.
  intros [_ W]%andb_true_iff D. destruct (Ascii.eqb_spec c d) as [->|]; [|reflexivity].
  now rewrite D in W.
Qed.

Lemma wf_token_facts x : wf_token x = true ->
  x <> [] /\ forallb line_byte x = true /\ nosep SP x = true /\ existsb is_ws x = false.
Proof.
  intros [N V]%andb_true_iff. repeat split.
  - now destruct x.
  - revert V. apply forallb_impl. intros c V. unfold line_byte.
    rewrite (vis_not c LF V eq_refl). now apply andb_true_iff in V as [-> _].
  - revert V. apply forallb_impl. intros c V. exact (vis_not c SP V eq_refl).
  - apply forallb_not_existsb. revert V. apply forallb_impl. intros c V. now apply andb_true_iff in V.
Qed.

Lemma wf_version_cases v : wf_version v = true -> v = (0, 9)%N \/ v = (1, 0)%N \/ v = (1, 1)%N.
Proof.
  unfold wf_version, ver_eq. destruct v as [a b]. cbn [fst snd]. intros H.
  apply orb_true_iff in H as [H|H]; [apply orb_true_iff in H as [H|H]|];
    apply andb_true_iff in H as [H1 H2]; apply N.eqb_eq in H1, H2; subst; auto.
Qed.

Lemma render_version_token v : wf_version v = true ->
  parse_version (render_version v) = Some v /\ wf_token (render_version v) = true.
Proof. intros H. apply wf_version_cases in H as [->|[->| ->]]; split; reflexivity. Qed.

Lemma request_line_parsed m t v :
  wf_token m = true -> wf_token t = true -> wf_version v = true ->
  let rl := m ++ SP :: t ++ SP :: render_version v in
  all_ascii rl = true /\ no_crlf rl = true /\ parse_request_line (trim rl) = Some (m, t, v).
Proof.
  intros Hm Ht Hv rl. destruct (render_version_token v Hv) as [Pv HV].
  destruct (wf_token_facts m Hm) as (Nm & Lm & Sm & Wm).
  destruct (wf_token_facts t Ht) as (_ & Lt & St & _).
  destruct (wf_token_facts _ HV) as (NV & LV & SV & WV).
  destruct (line_bytes rl) as [A C].
  { unfold rl. rewrite forallb_app. cbn [forallb]. rewrite forallb_app. cbn [forallb]. now rewrite Lm, Lt, LV. }
  (* trim leaves the line alone: it begins with the first byte of m and ends with the version token *)
  assert (T : trim rl = rl).
  { unfold trim. replace (trim_start rl) with rl.
    - unfold rl. change (m ++ SP :: t ++ SP :: render_version v) with (m ++ (SP :: t) ++ [SP] ++ render_version v).
      rewrite !app_assoc, trim_end_app, (trim_end_no_ws _ WV). now destruct (render_version v).
    - unfold rl. destruct m as [|c m']; [congruence|]. symmetry. apply trim_start_nonws.
      now apply orb_false_iff in Wm as [Wc _]. }
  repeat split; [exact A|exact C|].
  rewrite T. unfold parse_request_line, rl.
  now rewrite (split_on_sep SP m _ Sm), (split_on_sep SP t _ St), (split_on_nosep SP _ SV), Pv.
Qed.

Lemma field_line_good f o :
  wf_field f = true -> forallb is_ows (fst o) = true -> forallb is_ows (snd o) = true ->
  good_line (render_field f o) = true /\ hdr_of (render_field f o) = field_header f.
Proof.
  destruct f as [n v], o as [o1 o2]. unfold wf_field, wf_name, wf_value, render_field, field_header. cbn [fst snd].
  intros H O1 O2. apply andb_true_iff in H as [Hn Hv].
  apply andb_true_iff in Hn as [Hn Cn]. apply andb_true_iff in Hv as [Fv Ev].
  destruct (ows_blank o1 O1) as [W1 L1]. destruct (ows_blank o2 O2) as [W2 L2].
  destruct (wf_token_facts n Hn) as (_ & Ln & _ & Wn).
  assert (P : parse_header (n ++ ":" :: o1 ++ v ++ o2) = Some (mkH n v)).
  { unfold parse_header. now rewrite (split_first_app _ _ _ Cn), Wn, (trim_inner o1 v o2 W1 W2 Ev). }
  split; [|unfold hdr_of; now rewrite P].
  unfold good_line. destruct (line_bytes (n ++ ":" :: o1 ++ v ++ o2)) as [-> ->].
  { rewrite forallb_app. cbn [forallb]. rewrite !forallb_app, Ln, L1, L2, (forallb_impl _ _ v fchar_line_byte Fv).
    reflexivity. }
  destruct (bad_header_line _) eqn:B; [|reflexivity]. apply parse_header_none in B. congruence.
Qed.

Lemma render_fields_good hs : forall ows, forallb wf_field hs = true -> wf_ows ows = true ->
  exists goods, render_fields hs ows = lines goods /\
                forallb good_line goods = true /\ map hdr_of goods = map field_header hs.
Proof.
  induction hs as [|f t IH]; intros ows H O; [now exists []|].
  cbn [forallb] in H. apply andb_true_iff in H as [Hf Ht].
  assert (Oh : wf_ows (hd ([], []) ows :: tl ows) = true) by now destruct ows.
  unfold wf_ows in Oh. cbn [forallb] in Oh. apply andb_true_iff in Oh as [[O1 O2]%andb_true_iff O3].
  destruct (field_line_good f _ Hf O1 O2) as [G E]. destruct (IH (tl ows) Ht O3) as (goods & R & G' & E').
  exists (render_field f (hd ([], []) ows) :: goods). cbn [render_fields forallb map].
  rewrite R, G, G', E, E'. repeat split. unfold lines. cbn [map List.concat]. now rewrite <- app_assoc.
Qed.

(* C02 on the head parser *)
Theorem head_roundtrip r ows tail : wf_head r = true -> wf_ows ows = true ->
  read_head fixed (render_req_head r ows ++ tail)
  = HeadOk (rq_method r) (rq_target r) (rq_version r) (map field_header (rq_headers r)) tail.
Proof.
  intros W O. unfold wf_head in W.
  apply andb_true_iff in W as [[[Wm Wt]%andb_true_iff Wv]%andb_true_iff Wh].
  destruct (request_line_parsed _ _ _ Wm Wt Wv) as (A & C & P).
  destruct (render_fields_good _ ows Wh O) as (goods & R & G & E).
  rewrite <- E, <- (read_head_complete _ _ _ _ _ tail A C P G).
  unfold render_req_head. rewrite R. f_equal.
  repeat (rewrite <- app_assoc; cbn [app]). reflexivity.
Qed.

Lemma field_header_inj a b : field_header a = field_header b -> a = b.
Proof. destruct a, b. unfold field_header. cbn [fst snd]. congruence. Qed.

Lemma map_field_header_inj a : forall b, map field_header a = map field_header b -> a = b.
Proof.
  induction a as [|x a IH]; intros [|y b] H; try discriminate H; [reflexivity|].
  cbn [map] in H. f_equal; [apply field_header_inj|apply IH]; congruence.
Qed.
