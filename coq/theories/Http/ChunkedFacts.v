(* Http/ChunkedFacts.v — the chunk-size line: which lines the decoder of chunked_transfer 1.5.0
   (as modelled by size_bytes / parse_chunk_size / read_chunk_size) accepts, and that on such a
   line it yields exactly the announced size and consumes exactly the line and its CRLF. *)
From TH Require Import Base.Bytes Base.BytesFacts Base.RadixFacts Http.Request Http.Body Http.LineFacts.
From Coq Require Import Lia ZArith ZifyBool.
Open Scope char_scope.

(* blanks that may surround the number: what str::trim removes, except CR (which ends the line) *)
Definition blank (c : ascii) : bool := is_ws c && negb (Ascii.eqb c CR).
Definition is_hexc (c : ascii) : bool := match hex_val c with Some _ => true | None => false end.
Definition no_cr (x : bytes) : bool := forallb (fun c => negb (Ascii.eqb c CR)) x.

(* A well-formed size line (without its CRLF) announcing n:
     blanks, an optional '+', one or more hex digits in either case (any number of leading zeros)
     whose value is n < 2^64, blanks, and optionally ';' followed by anything free of CR. *)
Definition size_line_ok (sl : bytes) (n : N) : Prop :=
  exists ws1 sign digits ws2 ext,
    sl = ws1 ++ sign ++ digits ++ ws2 ++ ext /\
    forallb blank ws1 = true /\ (sign = [] \/ sign = ["+"]) /\
    digits <> [] /\ value_radix 16 hex_val 0 digits = Some n /\ (n < USIZE_BOUND)%N /\
    forallb blank ws2 = true /\
    (ext = [] \/ exists e, ext = ";" :: e /\ no_cr e = true).

(* the bytes the size loop collects (neither CR nor ';') and String::from_utf8 lets through *)
Definition pre_ok (c : ascii) : bool := negb (Ascii.eqb c CR) && negb (Ascii.eqb c ";").
Definition plain (c : ascii) : bool := is_ascii c && pre_ok c.

Lemma eqb_code c d : Ascii.eqb c d = (code c =? code d)%N.
Proof.
  destruct (Ascii.eqb_spec c d) as [->|Hne]; [now rewrite N.eqb_refl|].
  symmetry. apply N.eqb_neq. intros H. apply Hne.
  rewrite <- (ascii_N_embedding c), <- (ascii_N_embedding d). exact (f_equal ascii_of_N H).
Qed.

Lemma blank_ws c : blank c = true -> is_ws c = true.
Proof. unfold blank. intros H. now apply andb_true_iff in H. Qed.
Lemma blank_plain c : blank c = true -> plain c = true.
Proof.
  unfold blank, plain, pre_ok, is_ws, is_ascii. rewrite !eqb_code.
  change (code CR) with 13%N. change (code ";") with 59%N. lia.
Qed.

Lemma hexc_code c : is_hexc c = true ->
  (48 <= code c <= 57 \/ 97 <= code c <= 102 \/ 65 <= code c <= 70)%N.
Proof.
  unfold is_hexc, hex_val, is_digit. cbv zeta.
  destruct ((48 <=? code c) && (code c <=? 57))%N eqn:E1; [lia|].
  destruct ((97 <=? code c) && (code c <=? 102))%N eqn:E2; [lia|].
  destruct ((65 <=? code c) && (code c <=? 70))%N eqn:E3; [lia|discriminate].
Qed.
Lemma hexc_plain c : is_hexc c = true -> plain c = true.
Proof.
  intros H. apply hexc_code in H. unfold plain, pre_ok, is_ascii. rewrite !eqb_code.
  change (code CR) with 13%N. change (code ";") with 59%N. lia.
Qed.
Lemma hexc_nows c : is_hexc c = true -> negb (is_ws c) = true.
Proof. intros H. apply hexc_code in H. unfold is_ws. lia. Qed.
Lemma hexc_noplus c : is_hexc c = true -> Ascii.eqb c "+" = false.
Proof. intros H. apply hexc_code in H. rewrite eqb_code. change (code "+") with 43%N. lia. Qed.

Lemma value_hex_all : forall x acc v, value_radix 16 hex_val acc x = Some v -> forallb is_hexc x = true.
Proof.
  induction x as [|c x IH]; intros acc v H; [reflexivity|]. cbn [value_radix] in H. cbn [forallb]. unfold is_hexc at 1.
  destruct (hex_val c) as [d|]; [|discriminate]. cbn [andb]. eapply IH; eauto.
Qed.

(* the match on a leading '+', by the bits of "+" two at a time: a bit that differs decides both sides *)
Lemma parse_hex_usize_cons c t : parse_hex_usize (c :: t) =
  parse_radix 16 hex_val USIZE_BOUND (if Ascii.eqb c "+" then t else c :: t).
Proof.
  destruct c as [b0 b1 b2 b3 b4 b5 b6 b7].
  destruct b0, b1; try reflexivity. destruct b2, b3; try reflexivity.
  destruct b4, b5; try reflexivity. destruct b6, b7; reflexivity.
Qed.

Lemma parse_hex_usize_some x n : parse_hex_usize x = Some n <->
  exists sign digits, x = sign ++ digits /\ (sign = [] \/ sign = ["+"]) /\ digits <> [] /\
                      value_radix 16 hex_val 0 digits = Some n /\ (n < USIZE_BOUND)%N.
Proof.
  split.
  - destruct x as [|c t]; [discriminate|]. rewrite parse_hex_usize_cons.
    destruct (Ascii.eqb_spec c "+") as [->|_]; intros H; apply parse_some in H.
    + now exists ["+"], t; auto.
    + now exists [], (c :: t); auto.
  - intros (sign & digits & -> & Hsign & Hd). pose proof (proj2 (parse_some _ _ _ digits n) Hd) as Hp.
    destruct Hsign as [->| ->]; [|exact Hp]. destruct Hd as (Hne & Hv & _).
    destruct digits as [|d ds]; [congruence|]. cbn [app]. rewrite parse_hex_usize_cons, hexc_noplus; [exact Hp|].
    apply value_hex_all in Hv. cbn [forallb] in Hv. now apply andb_true_iff in Hv.
Qed.

Section Number.
Variables (ws1 sign digits ws2 : bytes) (n : N).
Hypothesis Hw1 : forallb blank ws1 = true.
Hypothesis Hsign : sign = [] \/ sign = ["+"].
Hypothesis Hne : digits <> [].
Hypothesis Hv : value_radix 16 hex_val 0 digits = Some n.
Hypothesis Hb : (n < USIZE_BOUND)%N.
Hypothesis Hw2 : forallb blank ws2 = true.

Lemma number_plain : forallb plain (ws1 ++ sign ++ digits ++ ws2) = true.
Proof.
  rewrite !forallb_app. repeat (apply andb_true_iff; split).
  - exact (forallb_impl _ _ _ blank_plain Hw1).
  - destruct Hsign as [->| ->]; reflexivity.
  - exact (forallb_impl _ _ _ hexc_plain (value_hex_all _ _ _ Hv)).
  - exact (forallb_impl _ _ _ blank_plain Hw2).
Qed.

Lemma parse_chunk_size_ok : parse_chunk_size (ws1 ++ sign ++ digits ++ ws2) = Some n.
Proof.
  unfold parse_chunk_size, all_ascii.
  rewrite (forallb_impl plain is_ascii _ (fun c H => proj1 (andb_prop _ _ H)) number_plain).
  rewrite (app_assoc sign), trim_word.
  - apply parse_hex_usize_some. exists sign, digits. repeat split; assumption.
  - exact (forallb_impl _ _ _ blank_ws Hw1).
  - exact (forallb_impl _ _ _ blank_ws Hw2).
  - rewrite forallb_app. apply andb_true_iff. split.
    + destruct Hsign as [->| ->]; reflexivity.
    + exact (forallb_impl _ _ _ hexc_nows (value_hex_all _ _ _ Hv)).
Qed.
End Number.

Lemma size_bytes_pre : forall x fuel acc y e, forallb pre_ok x = true -> (List.length x <= fuel)%nat ->
  size_bytes fuel false acc (mkS (x ++ y) e) = size_bytes (fuel - List.length x) false (rev x ++ acc) (mkS y e).
Proof.
  induction x as [|c x IH]; intros fuel acc y e H Hf; [now rewrite Nat.sub_0_r|].
  cbn [forallb] in H. apply andb_true_iff in H as [Hc H].
  destruct fuel as [|f]; [cbn in Hf; lia|]. cbn [List.length] in Hf.
  cbn [List.length Nat.sub app size_bytes src_byte sbytes seof]. unfold pre_ok in Hc. apply andb_true_iff in Hc as [Hc1 Hc2].
  apply negb_true_iff in Hc1, Hc2. rewrite Hc1, Hc2. rewrite IH by (auto; lia). cbn [rev]. now rewrite <- app_assoc.
Qed.
Lemma size_bytes_ext : forall x fuel acc y e, no_cr x = true -> (List.length x < fuel)%nat ->
  size_bytes fuel true acc (mkS (x ++ CR :: y) e) = (DOk (frev acc), mkS y e).
Proof.
  induction x as [|c x IH]; intros fuel acc y e H Hf; (destruct fuel as [|f]; [cbn in Hf; lia|]).
  - cbn [app size_bytes src_byte sbytes seof]. now rewrite Ascii.eqb_refl.
  - unfold no_cr in H. cbn [forallb] in H. apply andb_true_iff in H as [Hc H]. apply negb_true_iff in Hc.
    cbn [app size_bytes src_byte sbytes seof]. rewrite Hc. apply IH; [exact H|cbn [List.length] in Hf; lia].
Qed.

Lemma expect_byte_ok c y e : expect_byte c (mkS (c :: y) e) = (DOk tt, mkS y e).
Proof. unfold expect_byte. cbn [src_byte sbytes seof]. now rewrite Ascii.eqb_refl. Qed.
Lemma read_crlf_ok y e : read_crlf (mkS (CRLF ++ y) e) = (DOk tt, mkS y e).
Proof. unfold read_crlf, CRLF. cbn [app]. now rewrite !expect_byte_ok. Qed.

(* on a line whose number part `pre` is free of CR and ';' the decoder parses `pre` and stands right
   after the line's CRLF; the fuel |pending|+1 of the model is enough *)
Lemma read_chunk_size_line pre ext rest e : forallb pre_ok pre = true ->
  (ext = [] \/ exists x, ext = ";" :: x /\ no_cr x = true) ->
  read_chunk_size (mkS ((pre ++ ext) ++ CRLF ++ rest) e) =
  match parse_chunk_size pre with Some n => (DOk n, mkS rest e) | None => (DErr, mkS rest e) end.
Proof.
  intros Hpre Hext. unfold read_chunk_size, CRLF. cbn [sbytes]. rewrite <- app_assoc. cbn [app].
  rewrite size_bytes_pre by (auto; rewrite app_length; lia). rewrite app_nil_r, !app_length.
  destruct (_ - _)%nat as [|f] eqn:Ef; [lia|].
  destruct Hext as [->|(x & -> & Hx)]; cbn [app size_bytes src_byte sbytes seof].
  - now rewrite Ascii.eqb_refl, frev_rev_id, expect_byte_ok.
  - change (Ascii.eqb ";" CR) with false. change (Ascii.eqb ";" ";") with true. cbn iota.
    rewrite size_bytes_ext by (auto; cbn [List.length] in Ef; lia). now rewrite frev_rev_id, expect_byte_ok.
Qed.

(* C03: on a well-formed size line the decoder obtains exactly the announced size *)
Theorem read_chunk_size_ok sl n rest e : size_line_ok sl n ->
  read_chunk_size (mkS (sl ++ CRLF ++ rest) e) = (DOk n, mkS rest e).
Proof.
  intros (ws1 & sign & digits & ws2 & ext & -> & Hw1 & Hsign & Hne & Hv & Hb & Hw2 & Hext).
  pose proof (number_plain ws1 sign digits ws2 n Hw1 Hsign Hv Hw2) as Hpre.
  apply (forallb_impl plain pre_ok _ (fun c H => proj2 (andb_prop _ _ H))) in Hpre.
  replace (ws1 ++ sign ++ digits ++ ws2 ++ ext) with ((ws1 ++ sign ++ digits ++ ws2) ++ ext) by now rewrite <- !app_assoc.
  rewrite read_chunk_size_line by assumption.
  now rewrite (parse_chunk_size_ok ws1 sign digits ws2 n Hw1 Hsign Hne Hv Hb Hw2).
Qed.

Lemma split_at_semi x : no_cr x = true -> exists pre ext,
  x = pre ++ ext /\ forallb pre_ok pre = true /\ (ext = [] \/ exists y, ext = ";" :: y /\ no_cr y = true).
Proof.
  induction x as [|c t IH]; intros H; [exists [], []; auto|].
  unfold no_cr in H. cbn [forallb] in H. apply andb_true_iff in H as [Hc H].
  destruct (Ascii.eqb_spec c ";") as [->|Hne].
  - exists [], (";" :: t). repeat split. right. now exists t.
  - destruct (IH H) as (a & b & -> & Hp & Hx). exists (c :: a), b. repeat split; auto.
    cbn [forallb]. rewrite Hp. unfold pre_ok. rewrite Hc. apply Ascii.eqb_neq in Hne. now rewrite Hne.
Qed.

Lemma ws_nocr_blank ws : forallb is_ws ws = true -> no_cr ws = true -> forallb blank ws = true.
Proof.
  intros H1 H2. apply forallb_forall. intros c Hc. unfold blank.
  rewrite (proj1 (forallb_forall _ _) H1 c Hc). exact (proj1 (forallb_forall _ _) H2 c Hc).
Qed.

(* Completeness: the decoder accepts no other lines.
   If read_chunk_size succeeds on  sl ++ CRLF ++ rest  (sl free of CR, so that sl is the line),
   then sl is a size line in the sense above, for the size returned. *)
Theorem read_chunk_size_complete sl rest e n st' : no_cr sl = true ->
  read_chunk_size (mkS (sl ++ CRLF ++ rest) e) = (DOk n, st') ->
  size_line_ok sl n /\ st' = mkS rest e.
Proof.
  intros Hcr. destruct (split_at_semi sl Hcr) as (pre & ext & -> & Hpre & Hext).
  rewrite read_chunk_size_line by assumption. unfold parse_chunk_size. destruct (all_ascii pre); [|discriminate].
  destruct (parse_hex_usize (trim pre)) as [m|] eqn:Ep; [|discriminate]. intros [= <- <-]. split; [|reflexivity].
  destruct (trim_decomp pre) as (ws1 & ws2 & E & Hw1 & Hw2).
  apply parse_hex_usize_some in Ep as (sign & digits & Et & Hsign & Hne & Hv & Hb).
  unfold no_cr in Hcr. rewrite forallb_app, E, !forallb_app in Hcr.
  apply andb_true_iff in Hcr as [Hcr _]. apply andb_true_iff in Hcr as [Hc1 Hcr]. apply andb_true_iff in Hcr as [_ Hc2].
  exists ws1, sign, digits, ws2, ext. repeat split; auto using ws_nocr_blank.
  rewrite E at 1. rewrite Et. now rewrite <- !app_assoc.
Qed.
