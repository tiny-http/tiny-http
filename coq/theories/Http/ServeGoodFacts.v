(* Http/ServeGoodFacts.v — the connection loop across requests that have no body: what it does with
   one such request, and with a run of them followed by anything (used to place a refused head at
   any position on the connection). *)
From TH Require Import Base.Bytes Base.BytesFacts Http.Request Http.Body Http.Serve
                       Http.HeadFacts Http.ServeFacts Http.ServeStreamFacts Http.C12ServeFacts
                       Http.ServeRefuseFacts.
From Coq Require Import Lia ZArith ZifyNat.

Definition quiet (r : req_head) : bool :=
  wf_head r
  && match framing fixed (map field_header (rq_headers r)) with FrOk KEmpty _ _ => true | _ => false end
  && negb (last_request (rq_version r) (map field_header (rq_headers r))).
Definition quiet_run (goods : list (req_head * list (bytes * bytes))) : bool :=
  forallb (fun g => quiet (fst g) && wf_ows (snd g)) goods.
Definition render_run (goods : list (req_head * list (bytes * bytes))) : bytes :=
  List.concat (map (fun g => render_req_head (fst g) (snd g)) goods).
Definition delivered_as (r : req_head) (d : delivered) : Prop :=
  d_method d = rq_method r /\ d_url d = rq_target r /\ d_ver d = rq_version r /\
  d_headers d = map field_header (rq_headers r).

Lemma wf_version_le_11 v : wf_version v = true -> ver_gt_11 v = false.
Proof. intros H. apply wf_version_cases in H as [->|[->| ->]]; reflexivity. Qed.

Lemma wf_head_version r : wf_head r = true -> ver_gt_11 (rq_version r) = false.
Proof.
  intros W. apply wf_version_le_11. unfold wf_head in W. apply andb_true_iff in W as [W _].
  now apply andb_true_iff in W as [_ W].
Qed.

Lemma skipn_S_tl {A} n (l : list A) : skipn (S n) l = skipn n (tl l).
Proof. destruct l; [destruct n; reflexivity|reflexivity]. Qed.

Lemma render_req_head_length r o : (1 <= List.length (render_req_head r o))%nat.
Proof.
  unfold render_req_head. rewrite app_length. cbn [List.length]. lia.
Qed.

Lemma quiet_step date dflt eof r o y f script wire reqs al ok : quiet r = true -> wf_ows o = true ->
  exists w d ok', delivered_as r d /\
    serve_loop fixed date (S f) script dflt (mkS (render_req_head r o ++ y) eof) wire reqs al ok
    = serve_loop fixed date f (tl script) dflt (mkS y eof) (wire ++ w) (d :: reqs) al ok'.
Proof.
  unfold quiet. intros Q O. apply andb_true_iff in Q as [Q L]. apply andb_true_iff in Q as [W F].
  apply negb_true_iff in L.
  destruct (framing fixed (map field_header (rq_headers r))) as [[] bl ex| |] eqn:E; try discriminate.
  eexists _, (d_empty (act_of script dflt) _ _ _ _ bl), _. split; [repeat split|].
  eapply no_body_continues; [exact (head_roundtrip r o y W O)|exact E|exact (wf_head_version r W)|exact L].
Qed.

Lemma run_quiet date dflt eof x goods : forall f script wire reqs al ok,
  quiet_run goods = true -> (List.length (render_run goods ++ x) < f)%nat ->
  exists w ds ok', Forall2 delivered_as (map fst goods) ds /\
    serve_loop fixed date f script dflt (mkS (render_run goods ++ x) eof) wire reqs al ok
    = serve_loop fixed date (S (List.length x)) (skipn (List.length goods) script) dflt (mkS x eof)
                 (wire ++ w) (rev ds ++ reqs) al ok'.
Proof.
  induction goods as [|[r o] goods IH]; intros f script wire reqs al ok Q Lf.
  - exists [], [], ok. split; [constructor|]. rewrite app_nil_r.
    apply serve_loop_fuel; [exact Lf|apply Nat.lt_succ_diag_r].
  - cbn [quiet_run forallb fst snd] in Q. apply andb_true_iff in Q as [Qr Q]. apply andb_true_iff in Qr as [Qr Qo].
    unfold render_run in *. cbn [map List.concat fst snd] in *. fold (render_run goods) in *.
    rewrite <- app_assoc in *. rewrite app_length in Lf. pose proof (render_req_head_length r o) as L1.
    destruct f as [|f]; [now apply Nat.nlt_0_r in Lf|].
    destruct (quiet_step date dflt eof r o (render_run goods ++ x) f script wire reqs al ok Qr Qo)
      as (w & d & ok1 & D & E).
    destruct (IH f (tl script) (wire ++ w) (d :: reqs) al ok1 Q) as (w' & ds & ok' & FA & E'); [clear - Lf L1; lia|].
    exists (w ++ w'), (d :: ds), ok'. split; [exact (Forall2_cons _ _ D FA)|].
    cbn [rev List.length]. rewrite E, E', skipn_S_tl. now rewrite <- !app_assoc.
Qed.

Lemma serve_after_run date script dflt eof x goods : quiet_run goods = true ->
  exists w ds ok', Forall2 delivered_as (map fst goods) ds /\
    serve fixed date script dflt (render_run goods ++ x) eof
    = serve_loop fixed date (S (List.length x)) (skipn (List.length goods) script) dflt (mkS x eof) w (rev ds) [] ok'.
Proof.
  intros Q. unfold serve.
  destruct (run_quiet date dflt eof x goods _ script [] [] [] true Q (Nat.lt_succ_diag_r _))
    as (w & ds & ok' & FA & E).
  exists w, ds, ok'. split; [exact FA|]. now rewrite E, app_nil_r.
Qed.

(* `out` is what the iteration that stops adds to the bytes sent *)
Lemma serve_run_then_done date script dflt eof goods x (out : bytes -> bytes) (e : conn_end) :
  quiet_run goods = true ->
  (forall f script wire reqs ok,
     serve_loop fixed date (S f) script dflt (mkS x eof) wire reqs [] ok = mkO (frev reqs) (out wire) e [] ok) ->
  exists w ds ok', Forall2 delivered_as (map fst goods) ds /\
    serve fixed date script dflt (render_run goods ++ x) eof = mkO ds (out w) e [] ok'.
Proof.
  intros Q D. destruct (serve_after_run date script dflt eof x goods Q) as (w & ds & ok' & FA & E).
  exists w, ds, ok'. split; [exact FA|]. now rewrite E, D, frev_rev_id.
Qed.

Theorem serve_run_then_400 date script dflt eof goods x ver :
  quiet_run goods = true ->
  (read_head fixed x = HeadBadHeader ver \/
   exists m u hs rest, read_head fixed x = HeadOk m u ver hs rest /\ framing fixed hs = FrBadContentLength) ->
  exists w ds ok', Forall2 delivered_as (map fst goods) ds /\
    serve fixed date script dflt (render_run goods ++ x) eof
    = mkO ds (w ++ error_bytes date 400 ver false) CClosed [] ok'.
Proof.
  intros Q R. apply serve_run_then_done with (out := fun w => w ++ error_bytes date 400 ver false); [exact Q|].
  intros. destruct R as [R|(m & u & hs & rest & R & F)].
  - now apply step_bad_header.
  - eapply step_bad_content_length; eassumption.
Qed.

Theorem serve_run_then_505 date script dflt eof goods x m u ver hs rest bl ex :
  quiet_run goods = true ->
  read_head fixed x = HeadOk m u ver hs rest -> framing fixed hs = FrOk KEmpty bl ex -> ver_gt_11 ver = true ->
  exists f w ds ok', (List.length rest <= f)%nat /\ Forall2 delivered_as (map fst goods) ds /\
    serve fixed date script dflt (render_run goods ++ x) eof
    = serve_loop fixed date f (skipn (List.length goods) script) dflt (mkS rest eof)
                 (w ++ bytes_505 date) (rev ds) [] ok'.
Proof.
  intros Q R F V. destruct (serve_after_run date script dflt eof x goods Q) as (w & ds & ok' & FA & E).
  exists (List.length x), w, ds, ok'. split; [|split; [exact FA|]].
  - eapply Nat.lt_le_incl, read_head_length, R.
  - rewrite E. now rewrite (step_505_no_body date _ _ dflt (mkS x eof) w (rev ds) [] ok' m u ver hs rest bl ex R F V).
Qed.

Theorem serve_505_then_run date script dflt eof input m u ver hs bl ex goods y :
  read_head fixed input = HeadOk m u ver hs (render_run goods ++ y) ->
  framing fixed hs = FrOk KEmpty bl ex -> ver_gt_11 ver = true ->
  quiet_run goods = true -> read_head fixed y = HeadEof ->
  exists w ds ok', Forall2 delivered_as (map fst goods) ds /\
    serve fixed date script dflt input eof
    = mkO ds (bytes_505 date ++ w) (if eof then CClosed else COpen) [] ok'.
Proof.
  intros R F V Q Y. unfold serve.
  rewrite (step_505_no_body date _ script dflt (mkS input eof) [] [] [] true m u ver hs _ bl ex R F V).
  cbn [seof app].
  destruct (run_quiet date dflt eof y goods _ script (bytes_505 date) [] [] true Q
              (read_head_length _ _ _ _ _ _ _ R)) as (w & ds & ok' & FA & E).
  exists w, ds, ok'. split; [exact FA|]. rewrite E, app_nil_r.
  rewrite (step_eof fixed date _ _ dflt (mkS y eof) _ (rev ds) [] ok' Y). now rewrite frev_rev_id.
Qed.
