(* Http/C14ArithFacts.v — C14(b): the side conditions under which the subtractions and slices of
   the Rust readers cannot underflow / go out of range (src/util/equal_reader.rs: `self.size -= len`,
   `buf[..self.size]`, `remaining_to_read -= other`; chunked_transfer's decoder.rs:
   `remaining_chunks_size - read`, `buf[..remaining_chunks_size]`): every piece a reader hands out
   fits the buffer it was asked to fill and never exceeds what the reader still had to deliver.
   The model computes in N (truncated subtraction); these lemmas show that no truncation ever happens.
   For the discarding loop of EqualReader::drop the file holds the definitions only (discard_buf,
   discard_want); its bounds are proved in Props/C14.v. *)
From TH Require Import Base.Bytes Http.Request Http.Body Http.StreamFacts.
From Coq Require Import Lia.
Open Scope char_scope.

Theorem src_read_piece n st d st' : src_read n st = (RData d, st') ->
  (List.length d <= n)%nat /\ d <> [] /\ sbytes st = d ++ sbytes st' /\ seof st' = seof st.
Proof.
  unfold src_read. destruct n as [|n]; [discriminate|]. destruct (sbytes st) as [|b0 b] eqn:E.
  - destruct (seof st); discriminate.
  - intros [= <- <-]. cbn [sbytes seof]. repeat split.
    + cbn [List.length]. rewrite firstn_length. lia.
    + discriminate.
    + cbn [app]. now rewrite firstn_skipn.
Qed.

(* EqualReader::read: `self.size -= len` *)
Theorem limited_read_piece c n rem st al d r' st' al' :
  body_read c n (BLimited rem) st al = (RData d, r', st', al') ->
  (len d <= rem)%N /\ (len d <= N.of_nat n)%N /\ r' = BLimited (rem - len d)%N.
Proof.
  cbn [body_read]. destruct (rem =? 0)%N; [discriminate|].
  destruct (src_read (N.to_nat (N.min (N.of_nat n) rem)) st) as [[d0| | |] st1] eqn:E; try discriminate.
  - intros [= <- <- <- <-]. apply src_read_piece in E as (H & _). unfold len. repeat split; lia.
  - destruct (discard c 1 rem st1 al). discriminate.
Qed.

(* EqualReader::drop: the loop `remaining_to_read -= other` over a buffer of discard_buf bytes
   (`vec![0; remaining_to_read.min(8192)]` with repair D6) *)
Definition discard_buf (c : cfg) (remaining : N) : N :=
  if fix_d6 c then N.min remaining 8192 else remaining.
Definition discard_want (c : cfg) (remaining : N) (st : stream) : nat :=
  let k := N.min (discard_buf c remaining) (len (sbytes st)) in
  N.to_nat (if (k =? 0)%N then 1%N else k).

(* chunked_transfer::Decoder::read: `Some(remaining_chunks_size - read)` *)
Lemma dgo_piece n rem r st d rem' st' : dgo n rem r st = (RData d, rem', st') ->
  (len d <= r)%N /\ (List.length d <= n)%nat /\
  (rem' = Some (r - len d)%N \/ rem' = None /\ len d = r).
Proof.
  unfold dgo. destruct (N.ltb_spec (N.of_nat n) r) as [Hlt|Hge].
  - destruct (src_read n st) as [[d0| | |] st1] eqn:E; try discriminate.
    intros [= <- <- <-]. apply src_read_piece in E as (H & _). unfold len. repeat split; try lia. auto.
  - destruct (src_read (N.to_nat r) st) as [[d0| | |] st1] eqn:E; try discriminate.
    apply src_read_piece in E as (H & _).
    destruct (N.eqb_spec (len d0) r) as [He|Hne].
    + destruct (read_crlf st1) as [[u| |] st2]; try discriminate.
      intros [= <- <- <-]. unfold len in *. repeat split; try lia. auto.
    + intros [= <- <- <-]. unfold len in *. repeat split; try lia. auto.
Qed.

Theorem dec_read_piece n r st d rem' st' : dec_read n (Some r) st = (RData d, rem', st') ->
  (len d <= r)%N /\ (List.length d <= n)%nat /\
  (rem' = Some (r - len d)%N \/ rem' = None /\ len d = r).
Proof. apply dgo_piece. Qed.

Theorem dec_read_fits n rem st d rem' st' : dec_read n rem st = (RData d, rem', st') ->
  (List.length d <= n)%nat.
Proof.
  destruct rem as [r|]; [intros H; apply dec_read_piece in H; tauto|].
  rewrite dec_read_none. destruct (read_chunk_size st) as [[sz| |] st1]; try discriminate.
  destruct (sz =? 0)%N; [destruct (read_crlf st1) as [[u| |] st2]; discriminate|].
  intros H. apply dgo_piece in H. tauto.
Qed.

(* every reader: the piece fits the application's buffer (the `Read` contract; `buf[..self.size]`,
   `buf[..remaining_chunks_size]`) *)
Theorem body_read_fits c n r st al d r' st' al' :
  body_read c n r st al = (RData d, r', st', al') -> (List.length d <= n)%nat.
Proof.
  destruct r as [|d0|rem|rem fin|]; cbn [body_read].
  - discriminate.
  - destruct d0; [discriminate|]. intros [= <- _ _ _]. rewrite firstn_length. lia.
  - intros H. apply limited_read_piece in H as (_ & H & _). unfold len in H. lia.
  - destruct fin; [discriminate|]. destruct (dec_read n rem st) as [[[d0| | |] rem'] st1] eqn:E; try discriminate.
    intros [= <- _ _ _]. exact (dec_read_fits _ _ _ _ _ _ E).
  - destruct (src_read n st) as [x st1] eqn:E. intros [= -> _ _ _]. apply src_read_piece in E. tauto.
Qed.

Theorem body_read_any_fits c n r st al d r' st' al' :
  body_read_any c n r st al = (RData d, r', st', al') -> (List.length d <= n)%nat.
Proof.
  destruct n as [|n]; cbn [body_read_any]; [|apply body_read_fits].
  destruct r as [|d0|rem|rem fin|]; cbn [body_read_zero]; try discriminate.
  - destruct (rem =? 0)%N; [discriminate|]. destruct (sbytes st).
    + destruct (seof st); [destruct (discard c 1 rem st al)|]; discriminate.
    + match goal with |- context [discard c ?f rem st al] => destruct (discard c f rem st al) end. discriminate.
  - destruct fin; [discriminate|]. destruct (fix_d4 c); [discriminate|apply body_read_fits].
Qed.
