(* Props/C17.v — unblock releases exactly one receiver; timed / non-blocking receives keep bounds.
   The proofs of more than a few lines are in Conc/MsgQueue.v (all label sequences, virtual time). *)
From Coq Require Import List.
Import ListNotations.
From TH Require Import Conc.MsgQueue.

(* each unblock token ends exactly one receive call and tokens never remove, duplicate or reorder a
   queued request: #calls returned by a token + #tokens still queued = #unblock calls, and the
   requests obey c07_fifo_exactly_once *)
Theorem c17_tokens_conserved :
  forall (V : Type) (MS : nat), 0 < MS -> forall (EPS : nat) (fixed : bool) (n : nat) (ls : list (label V)) (s : st V),
    run V MS EPS fixed (init V n) ls = Some s ->
    tokrets V s + ntok V (q V s) = unblocks V s /\ got V s ++ elems V (q V s) = pushed V s.
Proof. intros V MS HMS EPS fixed n ls s H. destruct (fifo_exactly_once V MS HMS EPS fixed n ls s H); auto. Qed.
Print Assumptions c17_tokens_conserved.

(* try_recv never blocks: the call is one step and leaves the receiver idle *)
Theorem c17_try_is_one_step :
  forall (V : Type) (MS EPS : nat) (fixed : bool) (s s' : st V) (t : nat),
    step V MS EPS fixed s (CallTry V t) = Some s' -> nth_error (rs V s') t = Some Idle.
Proof.
  intros V MS EPS fixed s s' t. cbn [step]. destruct (nth_error (rs V s) t) as [[| | | |]|] eqn:En; try discriminate.
  unfold take_ret. destruct (q V s) as [|[v|] q']; intros H; inversion H; subst; cbn; auto; eapply nth_upd_same; eauto.
Qed.
Print Assumptions c17_try_is_one_step.

(* a timed receive that returns empty-handed by time (not by a token) does so no earlier than
   T - 1 ms after it began ... *)
Theorem c17_timed_lower :
  forall (V : Type) (MS : nat), 0 < MS -> forall (EPS : nat) (fixed : bool) (n : nat) (ls : list (label V)) (s : st V),
    run V MS EPS fixed (init V n) ls = Some s ->
    forall t0 T t1, In (t0, T, t1) (tlog V s) -> T <= (t1 - t0) + MS.
Proof. exact timed_lower_bound. Qed.
Print Assumptions c17_timed_lower.

(* ... and no later than 2 T + EPS, EPS being the latency with which a timed wait is resumed after
   its deadline (the hypothesis is built into the enabledness of Tick, not an axiom) *)
Theorem c17_timed_upper :
  forall (V : Type) (MS : nat), 0 < MS -> forall (EPS : nat) (fixed : bool) (n : nat) (ls : list (label V)) (s : st V),
    run V MS EPS fixed (init V n) ls = Some s ->
    forall t0 T t1, In (t0, T, t1) (tlog V s) -> t1 <= t0 + 2 * T + EPS.
Proof. exact timed_upper_bound. Qed.
Print Assumptions c17_timed_upper.

(* non-vacuity: two unblocks release two receivers, the queued request is still delivered, in order;
   a timed receive of 30 ms on an empty queue returns at 30 ms *)
Example c17_example :
  match run nat 10 5 true (init nat 3)
          [CallPop nat 0; CallPop nat 1; Unblock nat (Some 0); Push nat 9 (Some 1); Unblock nat None;
           Resume nat 0; Resume nat 1; CallTry nat 2; CallTimed nat 2 300; Tick nat 300; Timeout nat 2; Resume nat 2] with
  | Some s => got nat s = [9] /\ tokrets nat s = 2 /\ unblocks nat s = 2 /\ tlog nat s = [(0, 300, 300)]
  | None => False
  end.
Proof. vm_compute. repeat split; reflexivity. Qed.
