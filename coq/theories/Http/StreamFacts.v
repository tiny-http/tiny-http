(* Http/StreamFacts.v — no body reader operation changes the flag "the client has closed its
   sending side" of the stream, and each leaves a suffix of the pending bytes. Also `dgo`, the inner
   function of Decoder::read, with the two equations (dec_read_some, dec_read_none) through which
   Http/ChunkedReader.v, Http/ReaderOpChunkModelFacts.v and Http/C15Facts.v take dec_read apart. *)
From TH Require Import Base.Bytes Http.Request Http.Body Http.BodyFacts.

Definition advanced (st st' : stream) : Prop :=
  seof st' = seof st /\ exists used, sbytes st = used ++ sbytes st'.

Lemma adv_refl st : advanced st st.
Proof. split; [reflexivity|]. now exists []. Qed.
Lemma adv_trans a b c : advanced a b -> advanced b c -> advanced a c.
Proof.
  intros [E1 [u1 H1]] [E2 [u2 H2]]. split; [congruence|]. exists (u1 ++ u2). now rewrite H1, H2, app_assoc.
Qed.

Lemma src_read_adv n st : advanced st (snd (src_read n st)).
Proof.
  unfold src_read. destruct n; [apply adv_refl|]. destruct (sbytes st) as [|b t] eqn:E.
  - destruct (seof st); apply adv_refl.
  - cbn [snd]. split; [reflexivity|]. cbn [sbytes]. exists (firstn (S n) (b :: t)). rewrite E. now rewrite firstn_skipn.
Qed.
Lemma src_byte_adv st : advanced st (snd (src_byte st)).
Proof.
  unfold src_byte. destruct (sbytes st) as [|b t] eqn:E.
  - destruct (seof st); apply adv_refl.
  - cbn [snd]. split; [reflexivity|]. cbn [sbytes]. exists [b]. now rewrite E.
Qed.
Lemma expect_byte_adv c st : advanced st (snd (expect_byte c st)).
Proof.
  unfold expect_byte. pose proof (src_byte_adv st) as H. destruct (src_byte st) as [[b| |] st']; cbn [snd] in *; auto.
  destruct (Ascii.eqb b c); exact H.
Qed.
Lemma size_bytes_adv : forall fuel ie acc st, advanced st (snd (size_bytes fuel ie acc st)).
Proof.
  induction fuel as [|f IH]; intros ie acc st; [apply adv_refl|]. cbn [size_bytes].
  pose proof (src_byte_adv st) as H. destruct (src_byte st) as [[b| |] st']; cbn [snd] in *; auto.
  destruct (Ascii.eqb b CR); [exact H|]. destruct ie; [eapply adv_trans; [exact H|apply IH]|].
  destruct (Ascii.eqb b ";"); (eapply adv_trans; [exact H|apply IH]).
Qed.
Lemma read_chunk_size_adv st : advanced st (snd (read_chunk_size st)).
Proof.
  unfold read_chunk_size. pose proof (size_bytes_adv (S (List.length (sbytes st))) false [] st) as H.
  destruct (size_bytes _ false [] st) as [[x| |] st1]; cbn [snd] in *; auto.
  pose proof (expect_byte_adv LF st1) as H1. destruct (expect_byte LF st1) as [[u| |] st2]; cbn [snd] in *;
    try (eapply adv_trans; eassumption).
  destruct (parse_chunk_size x); cbn [snd]; eapply adv_trans; eassumption.
Qed.
Lemma read_crlf_adv st : advanced st (snd (read_crlf st)).
Proof.
  unfold read_crlf. pose proof (expect_byte_adv CR st) as H. destruct (expect_byte CR st) as [[u| |] st1]; cbn [snd] in *; auto.
  eapply adv_trans; [exact H|apply expect_byte_adv].
Qed.

(* `rem` is the state that stays when the CRLF behind a chunk is missing *)
Definition dgo (n : nat) (rem : option N) (r : N) (st0 : stream) : rres * option N * stream :=
  if (N.of_nat n <? r)%N then
    match src_read n st0 with
    | (RData d, st1) => (RData d, Some (r - len d)%N, st1)
    | (REof, st1) => (REof, Some r, st1)
    | (x, st1) => (x, Some r, st1)
    end
  else
    match src_read (N.to_nat r) st0 with
    | (RData d, st1) =>
        if (len d =? r)%N then
          match read_crlf st1 with
          | (DOk _, st2) => (RData d, None, st2)
          | (DErr, st2) => (RErr, rem, st2)
          | (DBlock, st2) => (RBlock, rem, st2)
          end
        else (RData d, Some (r - len d)%N, st1)
    | (REof, st1) => (REof, Some r, st1)
    | (x, st1) => (x, Some r, st1)
    end.
Lemma dec_read_some n r st : dec_read n (Some r) st = dgo n (Some r) r st.
Proof. reflexivity. Qed.
Lemma dec_read_none n st : dec_read n None st =
  match read_chunk_size st with
  | (DOk sz, st1) =>
      if (sz =? 0)%N then
        match read_crlf st1 with
        | (DOk _, st2) => (REof, None, st2)
        | (DErr, st2) => (RErr, None, st2)
        | (DBlock, st2) => (RBlock, None, st2)
        end
      else dgo n None sz st1
  | (DErr, st1) => (RErr, None, st1)
  | (DBlock, st1) => (RBlock, None, st1)
  end.
Proof. reflexivity. Qed.

Lemma dgo_adv n rem r st : advanced st (snd (dgo n rem r st)).
Proof.
  unfold dgo. destruct (N.of_nat n <? r)%N.
  - pose proof (src_read_adv n st) as H. destruct (src_read n st) as [[d| | |] st1]; exact H.
  - pose proof (src_read_adv (N.to_nat r) st) as H. destruct (src_read (N.to_nat r) st) as [[d| | |] st1]; cbn [snd] in *; auto.
    destruct (len d =? r)%N; [|exact H]. pose proof (read_crlf_adv st1) as H1.
    destruct (read_crlf st1) as [[u| |] st2]; cbn [snd] in *; eapply adv_trans; eassumption.
Qed.

Lemma dec_read_adv n rem st : advanced st (snd (dec_read n rem st)).
Proof.
  destruct rem as [r|]; [apply dgo_adv|].
  rewrite dec_read_none. pose proof (read_chunk_size_adv st) as H.
  destruct (read_chunk_size st) as [[sz| |] st1]; cbn [snd] in *; auto.
  destruct (sz =? 0)%N.
  + pose proof (read_crlf_adv st1) as H1. destruct (read_crlf st1) as [[u| |] st2]; cbn [snd] in *; eapply adv_trans; eassumption.
  + eapply adv_trans; [exact H|apply dgo_adv].
Qed.

Lemma discard_adv c : forall fuel rem st al, advanced st (fst (discard c fuel rem st al)).
Proof.
  induction fuel as [|f IH]; intros rem st al; [apply adv_refl|]. cbn [discard].
  destruct (rem =? 0)%N; [apply adv_refl|].
  match goal with |- context [src_read ?k st] => pose proof (src_read_adv k st) as H; destruct (src_read k st) as [[d| | |] st1] end;
    cbn [snd fst] in *; auto.
  eapply adv_trans; [exact H|apply IH].
Qed.
Lemma drain_adv : forall fuel rem st, advanced st (drain_chunked fuel rem st).
Proof.
  induction fuel as [|f IH]; intros rem st; [apply adv_refl|]. cbn [drain_chunked].
  pose proof (dec_read_adv 1024 rem st) as H. destruct (dec_read 1024 rem st) as [[[d| | |] rem'] st1]; cbn [snd] in *; auto.
  eapply adv_trans; [exact H|apply IH].
Qed.

Theorem body_read_adv c n r st al : advanced st (snd (fst (body_read c n r st al))).
Proof.
  destruct r as [|d|rem|rem fin|]; cbn [body_read].
  - apply adv_refl.
  - destruct d; apply adv_refl.
  - destruct (rem =? 0)%N; [apply adv_refl|].
    match goal with |- context [src_read ?k st] => pose proof (src_read_adv k st) as H; destruct (src_read k st) as [[d| | |] st1] end;
      cbn [fst snd] in *; auto.
    pose proof (discard_adv c 1 rem st1 al) as H1. destruct (discard c 1 rem st1 al) as [st2 al2].
    cbn [fst snd] in *. eapply adv_trans; eassumption.
  - destruct fin; [apply adv_refl|].
    pose proof (dec_read_adv n rem st) as H. destruct (dec_read n rem st) as [[[d| | |] rem'] st1]; exact H.
  - pose proof (src_read_adv n st) as H. destruct (src_read n st) as [y st1]. exact H.
Qed.

Theorem body_read_any_adv c n r st al : advanced st (snd (fst (body_read_any c n r st al))).
Proof.
  destruct n as [|n]; [|apply body_read_adv]. cbn [body_read_any]. unfold body_read_zero.
  destruct r as [|d|rem|rem fin|]; try apply adv_refl.
  - destruct (rem =? 0)%N; [apply adv_refl|].
    destruct (sbytes st) as [|b t] eqn:Es; [destruct (seof st); [|apply adv_refl]|];
      match goal with |- context [discard c ?f rem st al] =>
        pose proof (discard_adv c f rem st al) as H; destruct (discard c f rem st al) end; exact H.
  - destruct fin; [apply adv_refl|]. destruct (fix_d4 c); [|apply body_read_adv].
    cbn [fst snd]. apply drain_adv.
Qed.

Theorem body_drop_adv c r st al : advanced st (fst (body_drop c r st al)).
Proof.
  destruct r as [|d|rem|rem fin|]; cbn [body_drop fst]; try apply adv_refl.
  - apply discard_adv.
  - destruct (fix_d4 c && negb fin); cbn [fst]; [apply drain_adv|apply adv_refl].
Qed.

Theorem reads_adv c : forall ns r st al, advanced st (snd (fst (reads c ns r st al))).
Proof.
  induction ns as [|n ns IH]; intros r st al; cbn [reads]; [apply adv_refl|].
  pose proof (body_read_adv c n r st al) as H.
  destruct (body_read c n r st al) as [[[[d| | |] r1] st1] al1]; cbn [fst snd] in *; try exact H.
  specialize (IH r1 st1 al1). destruct (reads c ns r1 st1 al1) as [[[[ps e] r2] st2] al2].
  cbn [fst snd] in *. eapply adv_trans; eassumption.
Qed.

Theorem take_adv c : forall fuel m n r st al acc, advanced st (snd (fst (take c fuel m n r st al acc))).
Proof.
  induction fuel as [|f IH]; intros m n r st al acc; cbn [take]; [apply adv_refl|].
  destruct (m =? 0)%N; [apply adv_refl|].
  match goal with |- context [body_read_any c ?k r st al] =>
    pose proof (body_read_any_adv c k r st al) as H;
    destruct (body_read_any c k r st al) as [[[[d| | |] r1] st1] al1] end; cbn [fst snd] in *; try exact H.
  eapply adv_trans; [exact H|apply IH].
Qed.
