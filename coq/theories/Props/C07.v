(* Props/C07.v — each complete request is delivered exactly once; no lost wake-ups.
   Statements only; proofs are in Conc/MsgQueue.v. The model is the message queue of
   src/util/messages_queue.rs under ALL label sequences (any producers, receivers, call mix, notify
   choices, spurious wake-ups, timeouts, passage of time); MS = one millisecond in clock units,
   EPS = scheduling latency, both arbitrary. *)
From Coq Require Import List.
Import ListNotations.
From TH Require Import Conc.MsgQueue.

(* values returned by receive calls (in the order of their critical sections) followed by the values
   still queued are exactly the values pushed, in push order: nothing lost, duplicated or
   reordered; holds for the repaired and the as-found tree *)
Theorem c07_fifo_exactly_once :
  forall (V : Type) (MS : nat), 0 < MS -> forall (EPS : nat) (fixed : bool) (n : nat) (ls : list (label V)) (s : st V),
    run V MS EPS fixed (init V n) ls = Some s ->
    got V s ++ elems V (q V s) = pushed V s /\ tokrets V s + ntok V (q V s) = unblocks V s.
Proof. exact fifo_exactly_once. Qed.
Print Assumptions c07_fifo_exactly_once.

(* no lost wake-up (repaired tree): in every reachable state in which some receiver is blocked,
   every queued item has its own awake receiver *)
Theorem c07_no_lost_wakeup :
  forall (V : Type) (MS : nat), 0 < MS -> forall (EPS : nat) (n : nat) (ls : list (label V)) (s : st V),
    run V MS EPS true (init V n) ls = Some s ->
    0 < count (is_blocked) (rs V s) -> length (q V s) <= count (is_woken) (rs V s).
Proof. exact no_lost_wakeup. Qed.
Print Assumptions c07_no_lost_wakeup.

(* ... and an awake receiver can always take its next step, which removes the head of the queue *)
Theorem c07_woken_takes_head :
  forall (V : Type) (MS : nat), 0 < MS -> forall (EPS : nat) (s : st V) (t : nat) (r : rstate),
    nth_error (rs V s) t = Some r -> is_woken r = true -> q V s <> [] ->
    exists s', step V MS EPS true s (Resume V t) = Some s' /\ length (q V s') + 1 = length (q V s).
Proof. exact woken_takes_head. Qed.
Print Assumptions c07_woken_takes_head.

(* the tree as found violated it (defect D2, repaired): a notification reaching a timed receiver in
   its last millisecond is lost: an item stays queued, a receiver stays blocked, nobody is awake *)
Theorem c07_asfound_refuted :
  exists ls s, run nat 10 5 false (init nat 2) ls = Some s /\
    0 < count is_blocked (rs nat s) /\ ~ length (q nat s) <= count is_woken (rs nat s).
Proof. exact asfound_lost_wakeup. Qed.
Print Assumptions c07_asfound_refuted.

(* non-vacuity: the same schedule on the repaired tree hands the item to the timed receiver *)
Example c07_example_repaired :
  match run nat 10 5 true (init nat 2)
          [CallTimed nat 0 300; CallPop nat 1; Tick nat 294; Push nat 7 (Some 0); Resume nat 0] with
  | Some s => got nat s = [7] /\ q nat s = []
  | None => False
  end.
Proof. vm_compute. split; reflexivity. Qed.
