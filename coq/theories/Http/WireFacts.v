(* Http/WireFacts.v — C06: the bytes one connection sends are, in order, one contribution per
   delivered request (optional interim 100 Continue, then the final answer), with a 505 response in
   place of every head of version 2.0/3.0, and at most one refusal (400/417) at the very end.
   Proved for every input by induction on the fuel of serve_loop, through the one-step lemmas. *)
From TH Require Import Base.Bytes Base.BytesFacts Http.Response Http.Request Http.Body Http.Serve
  Http.ServeFacts Http.ServeStreamFacts Http.ServeRefuseFacts Http.C18Facts.
From Coq Require Import Lia.
Open Scope char_scope.

(* whether the request carried a recognised Expect: 100-continue (a function of its headers) *)
Definition expects_of (hs : list header) : bool :=
  match framing fixed hs with FrOk _ _ e => e | _ => false end.

Definition is_block (e : read_end) : bool := match e with EndBlock => true | _ => false end.

(* [interim response, iff expected and the action asks for the body] ++ [the final answer, unless
   the handler is stuck in a read of the body that the client never sends] *)
Definition contribution (date : bytes) (a : action) (d : delivered) : bytes :=
  (if expects_of (d_headers d) && asks_body a then interim date (d_ver d) (d_headers d) else []) ++
  (if is_block (d_end d) then [] else final_bytes date a (d_method d) (d_ver d) (d_headers d)).

(* the segments of a connection's output, one per iteration that writes something *)
Inductive seg :=
| SReq (a : action) (d : delivered)          (* a delivered request and the action applied to it *)
| S505                                       (* a head of version 2.0 / 3.0: not delivered *)
| SRefuse (st : N) (ver : version) (nb : bool).   (* a refused head: 400 / 417, then close *)

Definition seg_bytes (date : bytes) (sg : seg) : bytes :=
  match sg with
  | SReq a d => contribution date a d
  | S505 => bytes_505 date
  | SRefuse st ver nb => error_bytes date st ver nb
  end.
Definition segs_bytes (date : bytes) (segs : list seg) : bytes := List.concat (map (seg_bytes date) segs).

Definition seg_req (sg : seg) : list (action * delivered) :=
  match sg with SReq a d => [(a, d)] | _ => [] end.
Definition seg_reqs (segs : list seg) : list (action * delivered) := flat_map seg_req segs.

Definition seg_blocked (sg : seg) : bool :=
  match sg with SReq _ d => is_block (d_end d) | _ => false end.
(* after a terminal segment nothing more is sent on the connection *)
Definition terminal (sg : seg) : bool :=
  match sg with
  | SReq _ d => is_block (d_end d) || last_request (d_ver d) (d_headers d)
  | S505 => false
  | SRefuse _ _ _ => true
  end.
Definition seg_ok (sg : seg) : Prop :=
  match sg with
  | SReq _ d => ver_gt_11 (d_ver d) = false
  | S505 => True
  | SRefuse st ver nb => (st = 400%N /\ nb = false) \/ (st = 417%N /\ nb = true)
  end.
Fixpoint trace_ok (segs : list seg) : Prop :=
  match segs with
  | [] => True
  | sg :: t => seg_ok sg /\ (terminal sg = true -> t = []) /\ trace_ok t
  end.

(* the actions the handler applies to the first n requests: the script, then the default *)
Fixpoint used_actions (script : list action) (dflt : action) (n : nat) : list action :=
  match n with
  | O => []
  | S k => act_of script dflt :: used_actions (script_tl script) dflt k
  end.

Lemma used_actions_length script dflt n : List.length (used_actions script dflt n) = n.
Proof. revert script; induction n as [|n IH]; intros script; cbn [used_actions List.length]; [reflexivity|now rewrite IH]. Qed.

Lemma trace_ok_spec segs : trace_ok segs <->
  forall pre sg post, segs = pre ++ sg :: post -> seg_ok sg /\ (terminal sg = true -> post = []).
Proof.
  induction segs as [|x t IH]; cbn [trace_ok].
  - split; [intros _ pre sg post E; destruct pre; discriminate|auto].
  - split.
    + intros (H1 & H2 & H3) pre sg post E. destruct pre as [|y pre]; cbn [app] in E.
      * injection E as <- <-. auto.
      * injection E as <- E. apply (proj1 IH H3 pre sg post E).
    + intros H. split; [|split].
      * apply (H [] x t eq_refl).
      * apply (H [] x t eq_refl).
      * apply IH. intros pre sg post E. apply (H (x :: pre) sg post). now rewrite E.
Qed.

(* a request is either built or its small body is still incomplete; then the connection is not stuck *)
Lemma built_of_cases kind rest eof al :
  match built_of kind rest eof al with inl None | inr CHang => False | _ => True end.
Proof.
  destruct kind as [| |n| |]; cbn [built_of]; try exact I.
  destruct (n <=? len rest)%N; [exact I|]. destruct eof; exact I.
Qed.

Lemma terminal_blocked sg : terminal sg = false -> seg_blocked sg = false.
Proof. destruct sg as [a d| |]; cbn [terminal seg_blocked]; [|reflexivity..]. now intros [H _]%orb_false_iff. Qed.

(* the result of one iteration, described by at most one segment *)
Definition step_spec (date : bytes) (script : list action) (dflt : action)
    (wire : bytes) (reqs : list delivered) (r : step_result) : Prop :=
  match r with
  | SDone o =>
      (o_wire o = wire /\ o_reqs o = frev reqs /\ o_end o <> CHang) \/
      (exists sg, terminal sg = true /\ seg_ok sg /\
         o_wire o = wire ++ seg_bytes date sg /\
         o_reqs o = frev reqs ++ map snd (seg_req sg) /\
         map fst (seg_req sg) = used_actions script dflt (List.length (seg_req sg)) /\
         o_end o = (if seg_blocked sg then CHang else CClosed))
  | SCont script' st' wire' reqs' al' ok' =>
      exists sg, terminal sg = false /\ seg_ok sg /\ wire' = wire ++ seg_bytes date sg /\
        frev reqs' = frev reqs ++ map snd (seg_req sg) /\
        forall k, used_actions script dflt (List.length (seg_req sg) + k) =
                  map fst (seg_req sg) ++ used_actions script' dflt k
  end.

Lemma deliver_spec date script dflt wire reqs ok m url ver hs bl ex rd st1 al1 :
  expects_of hs = ex ->
  step_spec date script dflt wire reqs
    (deliver_step fixed date script dflt wire reqs ok m url ver hs bl ex rd st1 al1).
Proof.
  intros Hex. destruct (ver_gt_11 ver) eqn:Hv.
  - rewrite deliver_505 by (exact Hv || reflexivity). rewrite render_505. cbn [fst snd step_spec].
    exists S505. cbn [seg_req map app]. now rewrite app_nil_r.
  - rewrite deliver_served, handle_interim, handle_final by exact Hv.
    set (a := act_of script dflt). set (h := handle fixed date a m ver hs ex rd st1 al1).
    set (d := mkD m url ver hs bl (pieces_bytes (h_got h)) (h_end h)).
    change (match h_end h with EndBlock => true | _ => false end) with (is_block (d_end d)).
    assert (Hc : contribution date a d =
                 (if ex && asks_body a then interim date ver hs else []) ++
                 (if is_block (d_end d) then [] else final_bytes date a m ver hs))
      by (unfold contribution; cbn [d d_headers d_ver d_method]; now rewrite Hex).
    assert (Hsg : seg_ok (SReq a d)) by exact Hv.
    destruct (is_block (d_end d)) eqn:Eb; [|destruct (last_request ver hs) eqn:El]; cbn [step_spec].
    + right. exists (SReq a d). cbn [terminal seg_bytes seg_req seg_blocked map fst snd List.length used_actions o_wire o_reqs o_end].
      rewrite Eb, Hc, frev_cons, app_nil_r. auto 10.
    + right. exists (SReq a d). cbn [terminal seg_bytes seg_req seg_blocked map fst snd List.length used_actions o_wire o_reqs o_end].
      rewrite Eb, Hc, frev_cons. cbn [d d_ver d_headers]. rewrite El. auto 10.
    + exists (SReq a d). cbn [terminal seg_bytes seg_req map fst snd]. rewrite Eb, Hc, frev_cons.
      cbn [d d_ver d_headers]. rewrite El. auto.
Qed.

Lemma serve_step_spec date script dflt st wire reqs al ok :
  step_spec date script dflt wire reqs (serve_step fixed date script dflt st wire reqs al ok).
Proof.
  assert (Href : forall st0 ver nb,
            (st0 = 400%N /\ nb = false) \/ (st0 = 417%N /\ nb = true) ->
            step_spec date script dflt wire reqs
              (SDone (mkO (frev reqs) (wire ++ error_bytes date st0 ver nb) CClosed al (ok && true)))).
  { intros st0 ver nb Hst. cbn [step_spec o_wire o_reqs o_end]. right.
    exists (SRefuse st0 ver nb). cbn [terminal seg_ok seg_bytes seg_req seg_blocked map List.length used_actions].
    rewrite app_nil_r. repeat split; try assumption; reflexivity. }
  assert (Hquiet : forall e al0, e <> CHang ->
            step_spec date script dflt wire reqs (SDone (mkO (frev reqs) wire e al0 ok)))
    by (intros e al0 He; left; repeat split; exact He).
  unfold serve_step. destruct (read_head fixed (sbytes st)) as [m url ver hs rest| | | |ver].
  - destruct (framing fixed hs) as [kind bl ex| |] eqn:Ef; [|rewrite error_render; apply Href; auto..].
    pose proof (built_of_cases kind rest (seof st) al) as Hb.
    destruct (built_of kind rest (seof st) al) as [[[[rd st1] al1]|]|e]; [|destruct Hb|].
    + apply deliver_spec. unfold expects_of. now rewrite Ef.
    + apply Hquiet. now intros ->.
  - apply Hquiet. destruct (seof st); discriminate.
  - apply Hquiet. discriminate.
  - rewrite error_render. apply Href. auto.
  - rewrite error_render. apply Href. auto.
Qed.

(* stuck iff the last request blocked; closed by the server after any other terminal segment *)
Definition end_spec (o : outcome) (segs : list seg) : Prop :=
  (o_end o = CHang <-> existsb seg_blocked segs = true) /\
  (existsb terminal segs = true -> existsb seg_blocked segs = false -> o_end o = CClosed).
Definition trace_spec (date : bytes) (script : list action) (dflt : action)
    (wire : bytes) (reqs : list delivered) (o : outcome) (segs : list seg) : Prop :=
  o_wire o = wire ++ segs_bytes date segs /\
  o_reqs o = frev reqs ++ map snd (seg_reqs segs) /\
  map fst (seg_reqs segs) = used_actions script dflt (List.length (seg_reqs segs)) /\
  trace_ok segs /\
  end_spec o segs.

Lemma loop_trace date dflt : forall f script st wire reqs al ok, (slen st < f)%nat ->
  exists segs, trace_spec date script dflt wire reqs
                 (serve_loop fixed date f script dflt st wire reqs al ok) segs.
Proof.
  induction f as [|f IH]; intros script st wire reqs al ok Hf; [lia|].
  rewrite serve_loop_S.
  pose proof (serve_step_spec date script dflt st wire reqs al ok) as Hs.
  destruct (serve_step fixed date script dflt st wire reqs al ok)
    as [o|script' st' wire' reqs' al' ok'] eqn:Es; cbn [run_step step_spec] in *.
  - destruct Hs as [(Hw & Hr & He)|(sg & Ht & Hok & Hw & Hr & Ha & He)].
    + exists []. unfold trace_spec, segs_bytes, seg_reqs.
      cbn [map List.concat flat_map List.length used_actions trace_ok existsb].
      rewrite !app_nil_r. split; [exact Hw|split; [exact Hr|split; [reflexivity|split; [exact I|]]]].
      unfold end_spec. cbn [existsb]. split; [split; [intros H; destruct (He H)|discriminate]|discriminate].
    + exists [sg]. unfold trace_spec, segs_bytes, seg_reqs. cbn [map List.concat flat_map trace_ok existsb].
      rewrite !app_nil_r.
      split; [exact Hw|split; [exact Hr|split; [exact Ha|split; [auto|]]]].
      unfold end_spec. cbn [existsb]. rewrite !orb_false_r, He.
      destruct (seg_blocked sg); split; try split; try discriminate; reflexivity.
  - destruct Hs as (sg & Ht & Hok & -> & Hr & Hu).
    apply serve_step_progress in Es.
    destruct (IH script' st' (wire ++ seg_bytes date sg) reqs' al' ok' ltac:(lia)) as (segs & H1 & H2 & H3 & H4 & H5).
    exists (sg :: segs). unfold trace_spec, segs_bytes, seg_reqs in *.
    cbn [map List.concat flat_map trace_ok existsb].
    (* the segment goes in front of the wire, of the requests and of the actions used *)
    rewrite map_app, map_app, app_length, Hu, <- H3, H1, H2, Hr, !app_assoc.
    split; [reflexivity|split; [reflexivity|split; [reflexivity|split]]].
    + split; [exact Hok|split; [congruence|exact H4]].
    + unfold end_spec in *. cbn [existsb]. rewrite Ht, (terminal_blocked sg Ht). exact H5.
Qed.

Theorem serve_trace date script dflt input eof :
  exists segs, trace_spec date script dflt [] [] (serve fixed date script dflt input eof) segs.
Proof. unfold serve. apply loop_trace. unfold slen. cbn [sbytes]. lia. Qed.

Theorem wire_decomposition date script dflt input eof :
  let o := serve fixed date script dflt input eof in
  exists segs : list seg,
    o_wire o = segs_bytes date segs /\
    map snd (seg_reqs segs) = o_reqs o /\
    map fst (seg_reqs segs) = used_actions script dflt (List.length (o_reqs o)) /\
    (forall pre sg post, segs = pre ++ sg :: post -> seg_ok sg /\ (terminal sg = true -> post = [])) /\
    (o_end o = CHang <-> existsb seg_blocked segs = true) /\
    (existsb terminal segs = true -> existsb seg_blocked segs = false -> o_end o = CClosed).
Proof.
  cbv zeta. destruct (serve_trace date script dflt input eof) as (segs & H1 & H2 & H3 & H4 & H5).
  exists segs. cbn [app] in H1, H2. change (frev (@nil delivered)) with (@nil delivered) in H2. cbn [app] in H2.
  split; [exact H1|split; [now rewrite H2|split; [|split; [|exact H5]]]].
  - rewrite H2, map_length. exact H3.
  - apply trace_ok_spec, H4.
Qed.

Definition is_505 (sg : seg) : bool := match sg with S505 => true | _ => false end.
Definition contrib_of (date : bytes) (p : action * delivered) : bytes := contribution date (fst p) (snd p).
Definition refusal_of (date : bytes) (sg : seg) : bytes :=
  match sg with SRefuse st ver nb => error_bytes date st ver nb | _ => [] end.
Definition refusal_tail (date : bytes) (segs : list seg) : bytes := List.concat (map (refusal_of date) segs).
Definition is_refusal (date : bytes) (tail : bytes) : Prop :=
  exists ver, tail = error_bytes date 400 ver false \/ tail = error_bytes date 417 ver true.

Lemma refusal_bytes date st ver nb : seg_ok (SRefuse st ver nb) -> is_refusal date (error_bytes date st ver nb).
Proof. intros [[-> ->]|[-> ->]]; exists ver; auto. Qed.

Lemma segs_bytes_no_reqs date segs : trace_ok segs -> seg_reqs segs = [] ->
  exists n tail, segs_bytes date segs = List.concat (repeat (bytes_505 date) n) ++ tail /\
                 (tail = [] \/ is_refusal date tail).
Proof.
  unfold segs_bytes, seg_reqs.
  induction segs as [|sg t IH]; cbn [trace_ok map List.concat flat_map].
  - intros _ _. exists 0%nat, []. auto.
  - intros (Hok & Hterm & Ht) Hr. destruct sg as [a d| |st ver nb]; [discriminate| |].
    + destruct (IH Ht Hr) as (n & tail & E & Htail). exists (S n), tail. cbn [seg_bytes repeat List.concat].
      rewrite E, <- app_assoc. auto.
    + rewrite (Hterm eq_refl). exists 0%nat, (error_bytes date st ver nb).
      cbn [seg_bytes map List.concat repeat app]. rewrite app_nil_r. split; [reflexivity|right].
      now apply refusal_bytes.
Qed.

Lemma contribution_final date a d fin : d_end d <> EndBlock -> a_finish a = fin ->
  contribution date a d =
  (if expects_of (d_headers d) && asks_body a then interim date (d_ver d) (d_headers d) else []) ++
  fst (fin_wire date fin (d_method d) (d_ver d) (d_headers d)).
Proof.
  intros Hnb <-. unfold contribution. destruct (d_end d); try reflexivity. destruct (Hnb eq_refl).
Qed.
