(* Http/C04Facts.v — what raw_print writes is parsed back by the independent client parser:
   one well-formed message, the given status, exactly the application's body, self-delimiting. *)
From TH Require Import Base.Bytes Base.BytesFacts Base.RadixFacts Http.Reason Http.Response Http.ClientSpec
                       Http.ResponseFacts Http.LineFacts.
From Coq Require Import Lia ZArith ZifyN.
Open Scope N_scope.

(* = nosep LF x (LineFacts.v) *)
Definition nolf (x : bytes) : bool := forallb (fun c => negb (Ascii.eqb c LF)) x.

Lemma split_crlf_app l rest : nolf l = true -> split_crlf (l ++ CRLF ++ rest) = Some (l, rest).
Proof.
  change (CRLF ++ rest) with (CR :: LF :: rest).
  induction l as [|a t IH]; [reflexivity|]. cbn [nolf forallb]. intros H. apply andb_true_iff in H as [_ Ht].
  specialize (IH Ht). cbn [app split_crlf].
  (* the byte after a is not LF: it is the head of t, or CR *)
  destruct t as [|b t']; cbn [app] in *.
  - now rewrite andb_false_r, IH.
  - apply andb_true_iff in Ht as [Hb _]. apply negb_true_iff in Hb. now rewrite Hb, andb_false_r, IH.
Qed.

Lemma nolf_app a b : nolf (a ++ b) = nolf a && nolf b.
Proof. exact (nosep_app LF a b). Qed.

Lemma sep_eqb (p : ascii -> bool) c d : p c = true -> p d = false -> Ascii.eqb c d = false.
Proof. intros Hc Hd. destruct (Ascii.eqb_spec c d) as [->|]; [congruence|reflexivity]. Qed.

Lemma all_sep (p : ascii -> bool) d x :
  p d = false -> forallb p x = true -> nosep d x = true.
Proof. intros Hd. apply forallb_impl. intros a Ha. now rewrite (sep_eqb p a d). Qed.

Definition status_line (ver : version) (st : N) : bytes :=
  s "HTTP/" ++ print_dec (fst ver) ++ s "." ++ print_dec (snd ver) ++ [SP] ++ print_dec st ++ [SP]
    ++ reason_phrase st.
Definition versions : list version := [(0,9); (1,0); (1,1); (2,0); (3,0)].

Lemma versions_one_digit ver : In ver versions -> fst ver < 10 /\ snd ver < 10.
Proof. intros H. repeat (destruct H as [<-|H]; [split; reflexivity|]). destruct H. Qed.

Lemma lookup_reason_all (p : string -> bool) t c :
  p "Unknown"%string = true -> forallb (fun kp => p (snd kp)) t = true -> p (lookup_reason t c) = true.
Proof.
  intros Hu. induction t as [|[k x] t IH]; cbn [lookup_reason forallb snd]; [auto|].
  intros H. apply andb_true_iff in H as [Hx Ht]. destruct (k =? c); auto.
Qed.

Lemma reason_nolf st : nolf (reason_phrase st) = true.
Proof. apply (lookup_reason_all (fun x => nolf (s x))); reflexivity. Qed.

Lemma digits_nolf x : forallb is_digit x = true -> nolf x = true.
Proof. now apply all_sep. Qed.

Lemma parse_status_line_digits a b sc reason :
  is_digit a = true -> is_digit b = true -> forallb is_digit sc = true -> List.length sc = 3%nat ->
  parse_status_line (s "HTTP/" ++ [a] ++ s "." ++ [b] ++ [SP] ++ sc ++ [SP] ++ reason) =
  match parse_dec sc with Some n => Some ([a; "."%char; b], n, reason) | None => None end.
Proof.
  intros Da Db Dsc Hlen. unfold parse_status_line.
  change (s "HTTP/" ++ [a] ++ s "." ++ [b] ++ [SP] ++ sc ++ [SP] ++ reason)
    with (s "HTTP/" ++ [a; "."%char; b] ++ SP :: sc ++ SP :: reason).
  set (rest := [a; _; b] ++ _). change (s "HTTP/") with ["H"; "T"; "T"; "P"; "/"]%char. cbn [app starts_with skipn].
  rewrite !Ascii.eqb_refl. cbn [andb]. subst rest. rewrite split_first_app.
  2:{ cbn [nosep forallb]. rewrite (sep_eqb is_digit a SP), (sep_eqb is_digit b SP) by easy. reflexivity. }
  rewrite Da, Db, Ascii.eqb_refl. cbn [andb]. rewrite split_first_app by now apply (all_sep is_digit).
  rewrite Dsc. destruct sc as [|x [|y [|z [|]]]]; try discriminate. reflexivity.
Qed.

Lemma status_line_parses ver st : fst ver < 10 -> snd ver < 10 -> 100 <= st <= 999 ->
  nolf (status_line ver st) = true /\
  exists v, parse_status_line (status_line ver st) = Some (v, st, reason_phrase st).
Proof.
  intros Ha Hb Hst. unfold status_line. split.
  - rewrite !nolf_app, reason_nolf, !(digits_nolf (print_dec _)) by apply print_dec_digits. reflexivity.
  - rewrite !print_dec_small by assumption.
    rewrite parse_status_line_digits, parse_dec_print.
    + eexists. reflexivity.
    + unfold USIZE_BOUND. lia.
    + now apply is_digit_digit_char.
    + now apply is_digit_digit_char.
    + apply print_dec_digits.
    + rewrite print_dec_step, print_dec_step, print_dec_small by lia. reflexivity.
Qed.

Definition wf_header (h : header) : bool :=
  match hname h with [] => false | _ => true end &&
  negb (existsb is_ws (hname h)) && forallb (fun a => negb (Ascii.eqb a ":")) (hname h) &&
  nolf (hvalue h).
Definition wf_hname (n : bytes) : bool :=
  match n with [] => false | _ => true end && negb (existsb is_ws n) &&
  forallb (fun a => negb (Ascii.eqb a ":")) n.
Lemma wf_header_split h : wf_header h = wf_hname (hname h) && nolf (hvalue h).
Proof. reflexivity. Qed.

Definition norm (h : header) : header := mkH (hname h) (trim_ows (hvalue h)).

Lemma no_ws_nolf x : existsb is_ws x = false -> nolf x = true.
Proof.
  induction x as [|c t IH]; [reflexivity|]. cbn [existsb]. intros H. apply orb_false_iff in H as [Hc Ht].
  change (nolf (c :: t)) with (negb (Ascii.eqb c LF) && nolf t).
  rewrite (sep_eqb (fun a => negb (is_ws a)) c LF), (IH Ht); [reflexivity|now rewrite Hc|reflexivity].
Qed.

Lemma parse_field_render h : wf_header h = true ->
  nolf (hname h ++ s ": " ++ hvalue h) = true /\
  hname h ++ s ": " ++ hvalue h <> [] /\
  parse_field (hname h ++ s ": " ++ hvalue h) = Some (norm h).
Proof.
  unfold wf_header. intros H. apply andb_true_iff in H as [H Hv]. apply andb_true_iff in H as [H Hcolon].
  apply andb_true_iff in H as [Hne Hws]. apply negb_true_iff in Hws. repeat split.
  - now rewrite !nolf_app, (no_ws_nolf _ Hws), Hv.
  - destruct (hname h); discriminate.
  - unfold parse_field. change (s ": ") with [":"%char; SP]. cbn [app].
    rewrite split_first_app by exact Hcolon. rewrite Hws. unfold norm. destruct (hname h); [discriminate|reflexivity].
Qed.

Definition render_headers (hs : list header) : bytes := List.concat (map render_header hs).

Lemma render_headers_cons h t x :
  render_headers (h :: t) ++ x = (hname h ++ s ": " ++ hvalue h) ++ CRLF ++ render_headers t ++ x.
Proof. unfold render_headers, render_header. cbn [map List.concat]. now rewrite <- !app_assoc. Qed.

Lemma parse_fields_render hs rest : forall fuel, (List.length hs < fuel)%nat ->
  forallb wf_header hs = true ->
  parse_fields fuel (render_headers hs ++ CRLF ++ rest) = Some (map norm hs, rest).
Proof.
  induction hs as [|h t IH]; intros [|fuel] Hf Hwf; cbn [List.length] in Hf; try lia; [reflexivity|].
  cbn [forallb] in Hwf. apply andb_true_iff in Hwf as [Hh Ht].
  destruct (parse_field_render h Hh) as (Hn & Hne & Hp).
  rewrite render_headers_cons. cbn [parse_fields]. rewrite split_crlf_app by exact Hn.
  destruct (hname h ++ s ": " ++ hvalue h); [congruence|]. rewrite Hp, IH by (assumption || lia). reflexivity.
Qed.

Lemma len_app_ge d x : (len (d ++ x) <? len d) = false.
Proof. apply N.ltb_ge. rewrite len_app. lia. Qed.

Lemma dechunk_term fuel tail acc : (0 < fuel)%nat ->
  dechunk fuel (s "0" ++ CRLF ++ CRLF ++ tail) acc = Some (acc, tail).
Proof. intros H. destruct fuel; [lia|]. reflexivity. Qed.

Lemma dechunk_one fuel d more acc : d <> [] -> len d < USIZE_BOUND ->
  dechunk (S fuel) (chunk d ++ more) acc = dechunk fuel more (acc ++ d).
Proof.
  intros Hne Hlen. unfold chunk. cbn [dechunk]. destruct (print_hex_digits (len d)) as [_ Hd].
  rewrite <- !app_assoc, split_crlf_app by now apply (all_sep is_lhex).
  rewrite split_first_nosep by now apply (all_sep is_lhex). cbn [fst].
  rewrite parse_hex_print by exact Hlen.
  rewrite (proj2 (N.eqb_neq (len d) 0)) by (destruct d; [congruence|discriminate]).
  rewrite len_app_ge, firstn_len, skipn_len. reflexivity.
Qed.

Lemma dechunk_chunks c : (0 < c)%nat -> N.of_nat c < USIZE_BOUND ->
  forall f d acc fuel tail, (List.length d < f)%nat -> (f <= fuel)%nat ->
  dechunk fuel (chunks_aux f c d ++ s "0" ++ CRLF ++ CRLF ++ tail) acc = Some (acc ++ d, tail).
Proof.
  intros c_pos c_small. induction f as [|f IH]; intros d acc fuel tail Hd Hf; [lia|].
  cbn [chunks_aux]. destruct d as [|x d'] eqn:Ed.
  - rewrite app_nil_r. apply dechunk_term. lia.
  - rewrite <- Ed in *. assert (Hne : d <> []) by (subst; discriminate).
    destruct fuel as [|fuel]; [lia|].
    destruct (Nat.leb_spec (List.length d) c) as [Hle|Hgt].
    + rewrite dechunk_one by (unfold len; auto; lia). apply dechunk_term.
      destruct fuel; [|lia]. subst d. cbn [List.length] in Hd. lia.
    + rewrite <- app_assoc, dechunk_one.
      * rewrite IH by (rewrite ?skipn_length; lia). now rewrite <- app_assoc, firstn_skipn.
      * intros E. apply (f_equal (@List.length _)) in E. rewrite firstn_length in E. cbn in E. lia.
      * unfold len. rewrite firstn_length. lia.
Qed.

Lemma chunks_length c : (0 < c)%nat -> forall f d, (List.length d < f)%nat ->
  (List.length d <= List.length (chunks_aux f c d))%nat.
Proof.
  intros c_pos. induction f as [|f IH]; intros d Hd; [lia|]. cbn [chunks_aux].
  destruct d as [|x d'] eqn:Ed; [cbn; lia|]. rewrite <- Ed in *.
  assert (Hc : forall y, (List.length y <= List.length (chunk y))%nat) by (intros y; unfold chunk; rewrite !app_length; lia).
  destruct (Nat.leb_spec (List.length d) c); [apply Hc|].
  rewrite app_length. specialize (Hc (firstn c d)). rewrite firstn_length in Hc.
  specialize (IH (skipn c d)). rewrite skipn_length in IH. subst d. cbn [List.length] in *. lia.
Qed.

Lemma chunk_encode_length c d : (0 < c)%nat -> (List.length d <= List.length (chunk_encode_c c d))%nat.
Proof.
  intros c_pos. unfold chunk_encode_c. rewrite app_length.
  pose proof (chunks_length c c_pos (S (List.length d)) d). lia.
Qed.

Lemma dechunk_encode c : (0 < c)%nat -> N.of_nat c < USIZE_BOUND ->
  forall d tail fuel, (List.length d < fuel)%nat ->
  dechunk fuel (chunk_encode_c c d ++ tail) [] = Some (d, tail).
Proof.
  intros c_pos c_small d tail fuel H. unfold chunk_encode_c. rewrite <- !app_assoc.
  apply (dechunk_chunks c c_pos c_small (S (List.length d)) d [] fuel tail); lia.
Qed.

Lemma render_head_eq ver st hs :
  render_head ver st hs = status_line ver st ++ CRLF ++ render_headers hs ++ CRLF.
Proof. unfold render_head, status_line, render_headers. now rewrite <- !app_assoc. Qed.

Lemma render_headers_length hs : (List.length hs <= List.length (render_headers hs))%nat.
Proof.
  induction hs as [|h t IH]; [cbn; lia|]. unfold render_headers in *. cbn [map List.concat List.length].
  rewrite app_length. unfold render_header at 1. rewrite !app_length. cbn [List.length CRLF]. lia.
Qed.

Lemma bodyless_is_no_body st : bodyless_status st = no_body_status st.
Proof.
  unfold bodyless_status, no_body_status. f_equal. f_equal.
  destruct (N.eqb_spec (st / 100) 1), (N.leb_spec 100 st), (N.leb_spec st 199); cbn [andb]; try reflexivity; lia.
Qed.

Lemma values_of_norm n hs : values_of n (map norm hs) = map trim_ows (map hvalue (filter (equiv n) hs)).
Proof.
  unfold values_of. induction hs as [|h t IH]; cbn [map filter]; [reflexivity|].
  change (equiv n (norm h)) with (equiv n h). destruct (equiv n h); cbn [map]; [f_equal|]; exact IH.
Qed.

Lemma ltrim_ows_digits y : forallb is_digit y = true -> ltrim_ows y = y.
Proof.
  destruct y as [|c t]; [reflexivity|]. cbn [forallb ltrim_ows]. intros H. apply andb_true_iff in H as [Hc _].
  unfold is_ows. now rewrite (sep_eqb is_digit c SP), (sep_eqb is_digit c HT).
Qed.
Lemma trim_ows_digits x : forallb is_digit x = true -> trim_ows x = x.
Proof.
  intros H. unfold trim_ows. rewrite !frev_rev. rewrite (ltrim_ows_digits x H).
  rewrite ltrim_ows_digits; [apply rev_involutive|].
  apply forallb_forall. intros c Hc. apply in_rev in Hc. rewrite forallb_forall in H. auto.
Qed.

Lemma final_coding_none hs : filter is_te hs = [] -> final_coding (map norm hs) = None.
Proof. intros H. unfold final_coding. rewrite values_of_norm. fold is_te. now rewrite H. Qed.

Lemma final_coding_chunked hs : filter is_te hs = [mkH (s "Transfer-Encoding") (s "chunked")] ->
  final_coding (map norm hs) = Some (s "chunked").
Proof. intros H. unfold final_coding. rewrite values_of_norm. fold is_te. now rewrite H. Qed.

Lemma content_length_print hs l : filter is_cl hs = [mkH (s "Content-Length") (print_dec l)] ->
  l < USIZE_BOUND -> content_length (map norm hs) = ClOk l.
Proof.
  intros H Hl. unfold content_length. rewrite values_of_norm. fold is_cl. rewrite H. cbn [map hvalue forallb andb].
  destruct (print_dec_digits l) as [_ Hd]. now rewrite trim_ows_digits, Hd, parse_dec_print.
Qed.

Definition wf_response (r : response) : Prop :=
  100 <= status r <= 999 /\
  forallb wf_header (rheaders r) = true /\
  clean r /\
  (data_length r = None \/ data_length r = Some (len (rbody r))) /\
  len (rbody r) < USIZE_BOUND.

Lemma final_headers_wf date r te dl :
  forallb wf_header (rheaders r) = true -> nolf date = true ->
  forallb wf_header (final_headers date r None te dl) = true.
Proof.
  intros Hr Hd. rewrite final_headers_split, base_headers_eq, !forallb_app, Hr.
  assert (Hopt : forall (c : bool) h, wf_header h = true -> forallb wf_header (if c then [] else [h]) = true).
  { intros c h Hh. destruct c; cbn [forallb]; now rewrite ?Hh. }
  rewrite !Hopt; [|rewrite wf_header_split; cbn [hname hvalue]; now rewrite Hd|reflexivity].
  destruct te as [[|]|], dl; try reflexivity.
  cbn [forallb]. rewrite wf_header_split. cbn [hname hvalue]. now rewrite digits_nolf by apply print_dec_digits.
Qed.

(* raw_print writes an identity body only when its length is at least 1 *)
Lemma nonempty_or_nil (b : bytes) : (if 1 <=? len b then b else []) = b.
Proof.
  destruct b as [|a b]; [reflexivity|].
  now rewrite (proj2 (N.leb_le 1 (len (a :: b)))) by (unfold len; cbn [List.length]; lia).
Qed.

Definition expected_body (head : bool) (r : response) : bytes :=
  if head || bodyless_status (status r) then [] else rbody r.

Theorem roundtrip te0 date r ver head tail :
  wf_response r -> nolf date = true -> In ver versions ->
  exists p, parse_response head (raw_print_with te0 date r ver head None ++ tail) = Some p /\
            p_status p = status r /\ p_body p = expected_body head r /\ p_rest p = tail /\
            p_delim p <> UntilClose.
Proof.
  intros (Hst & Hwf & Hclean & Hlen & Hsmall) Hdate Hver.
  unfold raw_print_with. rewrite <- bodyless_is_no_body.
  set (dl := match data_length r with Some l => Some l | None =>
               match Some te0 with Some Identity => Some (len (rbody r)) | _ => None end end).
  set (hs := final_headers date r None (Some te0) dl).
  destruct (versions_one_digit ver Hver) as [Ha Hb].
  destruct (status_line_parses ver (status r) Ha Hb Hst) as (Hnl & v & Hps).
  rewrite render_head_eq, <- !app_assoc. unfold parse_response. rewrite split_crlf_app, Hps by exact Hnl.
  rewrite parse_fields_render;
    [|pose proof (render_headers_length hs); rewrite !app_length; lia|now apply final_headers_wf].
  unfold expected_body. destruct (head || bodyless_status (status r)).
  { eexists. repeat split. discriminate. }
  pose proof (framing_headers date r None (Some te0) dl Hclean) as Hfr. fold hs in Hfr. cbv zeta in Hfr.
  destruct te0.
  - assert (Hdl : dl = Some (len (rbody r))) by (subst dl; destruct Hlen as [->| ->]; reflexivity).
    rewrite Hdl in *. destruct Hfr as [Hcl Hte].
    rewrite (final_coding_none _ Hte), (content_length_print _ _ Hcl Hsmall).
    rewrite nonempty_or_nil.
    rewrite len_app_ge, firstn_len, skipn_len. eexists. repeat split. discriminate.
  - destruct Hfr as [Hte _]. rewrite (final_coding_chunked _ Hte), beq_refl.
    unfold chunk_encode, CHUNK.
    assert (c_pos : (0 < N.to_nat 8192)%nat) by lia.
    rewrite dechunk_encode; [|exact c_pos|rewrite N2Nat.id; reflexivity
                             |pose proof (chunk_encode_length _ (rbody r) c_pos); rewrite app_length; lia].
    eexists. repeat split. discriminate.
Qed.

Theorem no_body_bytes te0 date r ver head up :
  head || no_body_status (status r) = true ->
  raw_print_with te0 date r ver head up =
  render_head ver (status r)
    (final_headers date r up (match up with Some _ => None | None => Some te0 end)
       (match data_length r, match up with Some _ => None | None => Some te0 end with
        | Some l, _ => Some l
        | None, Some Identity => Some (len (rbody r))
        | None, _ => None
        end)).
Proof. unfold raw_print_with. intros ->. now rewrite app_nil_r. Qed.

(* the hypotheses of `roundtrip` are met by everything the application can build from well-formed headers *)
Lemma add_header_wf r h :
  wf_header h = true -> forallb wf_header (rheaders r) = true ->
  forallb wf_header (rheaders (add_header r h)) = true.
Proof.
  rewrite !forallb_Forall. intros Hh. apply add_header_Forall. intros _. split; [exact Hh|].
  intros x Hx. rewrite wf_header_split in *. cbn [hname hvalue].
  apply andb_true_iff in Hh as [_ ->]. now apply andb_true_iff in Hx as [-> _].
Qed.

Definition wf_rop (o : rop) : bool := match o with WithHeader h => wf_header h | _ => true end.

Lemma apply_rop_wf r o :
  wf_rop o = true -> forallb wf_header (rheaders r) = true ->
  forallb wf_header (rheaders (apply_rop r o)) = true.
Proof. destruct o; cbn [wf_rop apply_rop rheaders]; auto using add_header_wf. Qed.

Lemma add_header_same r h : equiv "Content-Length" h = false ->
  let r' := add_header r h in (status r', rbody r', data_length r') = (status r, rbody r, data_length r).
Proof.
  intros E. unfold add_header. rewrite E. destruct (forbidden h); [reflexivity|].
  now destruct (equiv "Content-Type" h && existsb (equiv "Content-Type") (rheaders r)).
Qed.

Theorem built_wf st hs b ops :
  100 <= st <= 999 -> forallb wf_header hs = true -> forallb wf_rop ops = true ->
  len b < USIZE_BOUND ->
  (* no status/data changes among ops, to keep the statement simple: headers and thresholds only *)
  forallb (fun o => match o with WithStatus _ | WithData _ _ => false | _ => true end) ops = true ->
  (* no Content-Length header among the supplied ones: the length is declared correctly or not at all *)
  forallb (fun h => negb (equiv "Content-Length" h)) hs = true ->
  forallb (fun o => match o with WithHeader h => negb (equiv "Content-Length" h) | _ => true end) ops = true ->
  forall dl, dl = None \/ dl = Some (len b) ->
  wf_response (build (new_response st hs b dl) ops).
Proof.
  intros Hst Hhs Hops Hb Hkind Hcl1 Hcl2 dl Hdl. rewrite forallb_forall in *.
  set (r := build (new_response st hs b dl) ops).
  assert (Hcore : (status r, rbody r, data_length r) = (st, b, dl)).
  { apply built_inv; [reflexivity| |].
    - intros r' h Hh <-. apply add_header_same. now apply negb_true_iff, Hcl1.
    - intros r' o Ho <-. specialize (Hkind o Ho). specialize (Hcl2 o Ho).
      destruct o; try discriminate; [|reflexivity]. apply add_header_same. now apply negb_true_iff. }
  injection Hcore as E1 E2 E3. unfold wf_response. rewrite E1, E2, E3. repeat split; try assumption; try lia.
  - apply built_inv; [reflexivity| |].
    + intros r' h Hh. apply add_header_wf. auto.
    + intros r' o Ho. apply apply_rop_wf. auto.
  - apply built_clean.
Qed.
