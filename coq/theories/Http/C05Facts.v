(* Http/C05Facts.v — choose_te agrees with the reference decision ref_choice of Http/C05Spec.v wherever
   the TE header is in the modelled sub-domain, and is None outside it. *)
From TH Require Import Base.Bytes Http.Response Http.C05Spec Http.TEFacts.

Lemma te_wish_entries rh :
  te_wish rh = match te_entries rh with Some entries => Some (ref_wish entries) | None => None end.
Proof.
  unfold te_wish, te_entries. destruct (find_header "TE" rh) as [h|]; [|reflexivity].
  destruct (all_ok _); [now rewrite wish_is_reference|reflexivity].
Qed.

Lemma choice_is_reference status rh ver dlen thr entries :
  te_entries rh = Some entries ->
  choose_te status rh ver dlen thr = Some (ref_choice status entries ver dlen thr).
Proof.
  intros H. unfold choose_te, ref_choice. rewrite te_wish_entries, H.
  destruct (ver_le ver (1, 0)%N); [reflexivity|].
  destruct ((status <? 200) || (status =? 204))%N; [reflexivity|].
  destruct (ref_wish entries); [reflexivity|]. destruct dlen as [n|]; [|reflexivity].
  rewrite N.ltb_antisym. now destruct (thr <=? n)%N.
Qed.

(* outside the sub-domain the model makes no claim, and says so *)
Lemma choice_unmodelled status rh ver dlen thr :
  te_entries rh = None -> ver_le ver (1, 0)%N = false ->
  ((status <? 200) || (status =? 204))%N = false ->
  choose_te status rh ver dlen thr = None.
Proof. unfold choose_te. intros H -> ->. now rewrite te_wish_entries, H. Qed.
