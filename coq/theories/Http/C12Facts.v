(* Http/C12Facts.v — C12: which request is the last one on a connection (reference decision written
   from the property text, equal to last_request). *)
From TH Require Import Base.Bytes Base.BytesFacts Http.Response Http.Request
  Http.ServeFacts.

Section Spec.
  Definition substring (p x : bytes) : Prop := exists a b, x = a ++ p ++ b.
  (* header names are compared without regard to ASCII case *)
  Definition named (n : bytes) (h : header) : Prop := lower (hname h) = lower n.
    Definition first_value (n : bytes) (hs : list header) (v : bytes) : Prop :=
    exists pre h post, hs = pre ++ h :: post /\ named n h /\ hvalue h = v /\
                       Forall (fun h' => ~ named n h') pre.
  Definition no_header (n : bytes) (hs : list header) : Prop := Forall (fun h => ~ named n h) hs.

  (* "an HTTP/1.1 request whose Connection header contains close or upgrade, or an HTTP/1.0 request
     without Connection: keep-alive" — the value is compared in lower case *)
  Definition ref_last (ver : version) (hs : list header) : Prop :=
    (exists v, first_value (s "Connection") hs v /\
               (substring (s "close") (lower v) \/ substring (s "upgrade") (lower v) \/
                (ver = (1, 0)%N /\ ~ substring (s "keep-alive") (lower v))))
    \/ (no_header (s "Connection") hs /\ ver = (1, 0)%N).
End Spec.

Lemma starts_with_spec p x : starts_with p x = true <-> exists b, x = p ++ b.
Proof.
  revert x; induction p as [|a p IH]; intros x; cbn [starts_with].
  - split; [intros _; exists x; reflexivity|reflexivity].
  - destruct x as [|b x].
    + split; [discriminate|intros [b0 H]; discriminate].
    + rewrite andb_true_iff, Ascii.eqb_eq, IH. split.
      * intros [-> [b0 ->]]. exists b0. reflexivity.
      * intros [b0 H]. cbn [app] in H. inversion H; subst. split; [reflexivity|exists b0; reflexivity].
Qed.

Lemma contains_sub_spec p x : contains_sub p x = true <-> substring p x.
Proof.
  unfold substring. induction x as [|c x IH]; cbn [contains_sub]; rewrite orb_true_iff, starts_with_spec.
  - split.
    + intros [[b H]|H]; [|discriminate]. exists [], b. exact H.
    + intros (a & b & H). left. destruct a; [exists b; exact H|discriminate].
  - rewrite IH. split.
    + intros [[b H]|(a & b & H)]; [exists [], b; exact H|exists (c :: a), b; rewrite H; reflexivity].
    + intros (a & b & H). destruct a as [|a0 a]; [left; exists b; exact H|right].
      cbn [app] in H. inversion H; subst. exists a, b. reflexivity.
Qed.

Lemma contains_sub_reflect p x : reflect (substring p x) (contains_sub p x).
Proof. apply iff_reflect. symmetry. apply contains_sub_spec. Qed.

Lemma equiv_named n h : equiv n h = true <-> named (s n) h.
Proof. unfold equiv, eq_ci, named. rewrite beq_eq. split; congruence. Qed.

Lemma find_spec {A} (p : A -> bool) l :
  match find p l with
  | Some h => exists pre post, l = pre ++ h :: post /\ p h = true /\ Forall (fun x => p x = false) pre
  | None => Forall (fun x => p x = false) l
  end.
Proof.
  induction l as [|x l IH]; cbn [find]; [constructor|].
  destruct (p x) eqn:E.
  - exists [], l. auto.
  - destruct (find p l) as [h|].
    + destruct IH as (pre & post & -> & Hh & Hp). exists (x :: pre), post. auto.
    + constructor; assumption.
Qed.

Lemma find_app_first {A} (p : A -> bool) pre h post :
  p h = true -> Forall (fun x => p x = false) pre -> find p (pre ++ h :: post) = Some h.
Proof.
  intros Hh Hp. induction Hp as [|x pre Hx Hp IH]; cbn [app find]; [now rewrite Hh|now rewrite Hx].
Qed.

Lemma header_value_spec n hs :
  match header_value n hs with
  | Some v => first_value (s n) hs v
  | None => no_header (s n) hs
  end.
Proof.
  unfold header_value, find_header. pose proof (find_spec (equiv n) hs) as H.
  destruct (find (equiv n) hs) as [h|]; cbn [option_map].
  - destruct H as (pre & post & -> & Hh & Hp). exists pre, h, post. repeat split; auto.
    + apply equiv_named, Hh.
    + eapply Forall_impl; [|exact Hp]. intros x Hx Hn. apply equiv_named in Hn. congruence.
  - eapply Forall_impl; [|exact H]. intros x Hx Hn. apply equiv_named in Hn. congruence.
Qed.

Lemma first_value_header_value n hs v : first_value (s n) hs v -> header_value n hs = Some v.
Proof.
  intros (pre & h & post & -> & Hn & <- & Hp). unfold header_value, find_header.
  rewrite find_app_first; [reflexivity|apply equiv_named, Hn|].
  eapply Forall_impl; [|exact Hp]. intros x Hx. cbv beta in Hx.
  destruct (equiv n x) eqn:E; [|reflexivity]. apply equiv_named in E. contradiction.
Qed.

Lemma no_header_header_value n hs : no_header (s n) hs <-> header_value n hs = None.
Proof.
  pose proof (header_value_spec n hs) as Hs. split; [intros H|intros E; now rewrite E in Hs].
  destruct (header_value n hs) as [v|]; [|reflexivity].
  destruct Hs as (pre & h & post & -> & Hn & _). apply Forall_app in H as [_ H]. inversion H; subst. contradiction.
Qed.

Lemma first_value_ex n hs (P : bytes -> Prop) :
  (exists v, first_value (s n) hs v /\ P v) <-> match header_value n hs with Some v => P v | None => False end.
Proof.
  split.
  - intros (v & Hv & HP). apply first_value_header_value in Hv. now rewrite Hv.
  - pose proof (header_value_spec n hs) as Hs. destruct (header_value n hs) as [v|]; [eauto|contradiction].
Qed.

Lemma ver_eq_spec v w : ver_eq v w = true <-> v = w.
Proof.
  destruct v as [a b], w as [a' b']. unfold ver_eq; cbn [fst snd].
  rewrite andb_true_iff, !N.eqb_eq. split; [intros [-> ->]; reflexivity|intros [= -> ->]; auto].
Qed.

Theorem last_request_table ver hs : last_request ver hs = true <-> ref_last ver hs.
Proof.
  unfold last_request, ref_last. rewrite first_value_ex, no_header_header_value.
  destruct (header_value "Connection" hs) as [v|]; cbv zeta.
  - destruct (contains_sub_reflect (s "close") (lower v)) as [C|C]; [split; auto|].
    destruct (contains_sub_reflect (s "upgrade") (lower v)) as [U|U]; [split; auto|].
    destruct (contains_sub_reflect (s "keep-alive") (lower v)) as [K|K]; cbn [negb andb]; split.
    + discriminate.
    + intros [[H|[H|[_ H]]]|[[=] _]]; contradiction.
    + intros V%ver_eq_spec. auto.
    + intros [[H|[H|[V _]]]|[[=] _]]; [contradiction..|]. apply ver_eq_spec, V.
  - rewrite ver_eq_spec. tauto.
Qed.
