(* Http/ReaderOpChunkModelFacts.v — dec_fn (ReaderOpChunkLoopFacts) never runs out of fuel, and the
   full-read loop of the model, Body.take over BChunked, computes dec_fn too (whenever dec_fn is
   determinate). Together with dec_take_op_fn: the operational loop over any segmentation agrees
   with the model's loop on the logical stream. *)
From TH Require Import Base.Bytes Http.Request Http.Body Http.BodyFacts Http.ReaderOp
                       Http.ReaderOpFacts Http.ReaderOpLimitedFacts Http.ReaderOpChunkFacts
                       Http.ReaderOpChunkLoopFacts Http.StreamFacts.
From Coq Require Import Lia.
Open Scope char_scope.

Lemma dprepend_not_fuel d R : R <> DFFuel -> dprepend d R <> DFFuel.
Proof. destruct R; cbn [dprepend]; congruence. Qed.

Theorem dec_fn_no_fuel : forall ff m rem x e, rem <> Some 0%N -> List.length x < ff ->
  dec_fn ff m rem x e <> DFFuel.
Proof.
  induction ff as [|f IH]; intros m rem x e Hrem Hf; [lia|]. cbn [dec_fn].
  destruct (m =? 0)%N; [discriminate|]. destruct rem as [r|].
  - assert (Hr : r <> 0%N) by congruence. cbn zeta.
    destruct (N.ltb_spec (len x) (N.min m r)); [discriminate|].
    destruct (N.ltb_spec (N.min m r) r); [discriminate|].
    pose proof (adv_length _ _ (read_crlf_adv (mkS (skipn (N.to_nat r) x) e))) as L.
    destruct (read_crlf (mkS (skipn (N.to_nat r) x) e)) as [[u| |] st2]; [|discriminate|discriminate].
    cbn [snd sbytes] in L. rewrite skipn_length in L. apply dprepend_not_fuel, IH; [discriminate|unfold len in *; lia].
  - pose proof (read_chunk_size_shorter (mkS x e)) as S.
    destruct (read_chunk_size (mkS x e)) as [[sz| |] st1]; [|discriminate|discriminate].
    specialize (S _ _ eq_refl). cbn [sbytes] in S. destruct (N.eqb_spec sz 0) as [|Hsz].
    + destruct (read_crlf st1) as [[u| |] st2]; discriminate.
    + apply IH; [congruence|lia].
Qed.

Lemma dgo_step n rem0 r x e f m F : 0 < n -> (N.of_nat n <= m)%N -> r <> 0%N ->
  dec_fn (S f) m (Some r) x e = DFOk F ->
  let '(res, rem', st') := dgo n rem0 r (mkS x e) in
  seof st' = e /\ step_post x e m F res rem' (sbytes st').
Proof.
  intros Hn Hnm Hr H. assert (Hm : m <> 0%N) by lia. unfold dgo.
  destruct (N.ltb_spec (N.of_nat n) r).
  - destruct (src_read_cases n x e Hn) as [(-> & ->)|(d & x' & Hx & Hd & Hl & ->)].
    + apply (step_post_nil f m r _ F Hm Hr) in H. destruct e; auto.
    + split; [reflexivity|]. apply (step_post_in f); auto; unfold len; lia.
  - destruct (src_read_cases (N.to_nat r) x e ltac:(lia)) as [(-> & ->)|(d & x' & Hx & Hd & Hl & ->)].
    + apply (step_post_nil f m r _ F Hm Hr) in H. destruct e; auto.
    + destruct (N.eqb_spec (len d) r) as [Hdr|Hdr].
      * destruct (step_post_done f m r d x x' e F Hx Hd Hdr ltac:(lia) H) as (u & st2 & Hc & Hp).
        rewrite Hc. split; [|exact Hp]. pose proof (read_crlf_adv (mkS x' e)) as (E & _).
        rewrite Hc in E. exact E.
      * split; [reflexivity|]. apply (step_post_in f); auto; unfold len in *; lia.
Qed.

Lemma dec_read_step n rem x e ff m F : 0 < n -> (N.of_nat n <= m)%N -> rem <> Some 0%N ->
  dec_fn ff m rem x e = DFOk F ->
  let '(res, rem', st') := dec_read n rem (mkS x e) in
  seof st' = e /\ step_post x e m F res rem' (sbytes st').
Proof.
  intros Hn Hnm Hrem H. assert (Hm : (m =? 0)%N = false) by (apply N.eqb_neq; lia).
  destruct ff as [|f]; [cbn [dec_fn] in H; rewrite Hm in H; discriminate|].
  destruct rem as [r|].
  - rewrite dec_read_some. apply (dgo_step n (Some r) r x e f m F); auto. congruence.
  - rewrite dec_read_none. cbn [dec_fn] in H. rewrite Hm in H.
    pose proof (read_chunk_size_eof x e) as Hst.
    pose proof (read_chunk_size_shorter (mkS x e)) as S.
    destruct (read_chunk_size (mkS x e)) as [[sz0| |] st1]; cbn [fst snd] in *.
    + specialize (S _ _ eq_refl). cbn [sbytes] in S.
      destruct (N.eqb_spec sz0 0) as [->|Hsz].
      * pose proof (read_crlf_adv st1) as (E & _). rewrite Hst in E at 2. cbn [seof] in E.
        destruct (read_crlf st1) as [[u| |] st2]; cbn [fst snd] in *; injection H as <-;
          (split; [exact E|reflexivity]).
      * destruct f as [|f']; [cbn [dec_fn] in H; rewrite Hm in H; discriminate|]. rewrite Hst.
        pose proof (dgo_step n None sz0 _ e f' m F Hn Hnm Hsz H) as Hp.
        destruct (dgo n None sz0 (mkS (sbytes st1) e)) as [[r1 rem1] st2].
        destruct Hp as (E & Hp). split; [exact E|]. destruct r1 as [d| | |]; try exact Hp.
        (* Q2 bounds the rest against the stream behind the size line; S says that one is shorter than x *)
        destruct Hp as (Q1 & Q2 & Q3). split; [exact Q1|]. split; [lia|exact Q3].
    + injection H as <-. rewrite Hst. split; reflexivity.
    + injection H as <-. rewrite Hst. split; reflexivity.
Qed.

Definition chunked_reader_after (c : cfg) (F : dtres) : breader :=
  match dt_end F with
  | EndEof => BEmpty
  | EndErr => BChunked (dt_rem F) (fix_d4 c)
  | _ => BChunked (dt_rem F) false
  end.

Theorem take_chunked_fn c n : 0 < n -> forall fuel m rem x e al acc ff F,
  rem <> Some 0%N -> List.length x < fuel -> dec_fn ff m rem x e = DFOk F ->
  exists acc', take c fuel m n (BChunked rem false) (mkS x e) al acc
                 = (acc', dt_end F, chunked_reader_after c F, mkS (dt_rest F) e, al) /\
               pieces_bytes acc' = pieces_bytes acc ++ dt_got F.
Proof.
  intros Hn. induction fuel as [|fo IH]; intros m rem x e al acc ff F Hrem Hf H; [lia|].
  cbn [take]. destruct (N.eqb_spec m 0) as [->|Hm].
  - rewrite dec_fn_0 in H. injection H as <-. exists acc. unfold chunked_reader_after.
    cbn [dt_got dt_end dt_rem dt_rest]. rewrite app_nil_r. auto.
  - assert (Hw : 0 < N.to_nat (N.min m (N.of_nat n))) by lia.
    pose proof (dec_read_step _ rem x e ff m F Hw ltac:(lia) Hrem H) as Hp.
    rewrite body_read_any_pos by exact Hw. unfold body_read.
    destruct (dec_read (N.to_nat (N.min m (N.of_nat n))) rem (mkS x e)) as [[r1 rem1] [x1 e1]].
    cbn [sbytes seof] in Hp. destruct Hp as (-> & Hp). unfold step_post in Hp. destruct r1 as [d| | |].
    1: { destruct Hp as (Q1 & Q2 & Q3 & f' & F' & Q4 & ->).
         destruct (IH (m - len d)%N rem1 x1 e al (d :: acc) f' F' Q3 ltac:(lia) Q4) as (acc' & R1 & R2).
         exists acc'. unfold chunked_reader_after in *. cbn [dt_got dt_end dt_rem dt_rest] in *.
         split; [exact R1|]. rewrite R2, pieces_bytes_cons. now rewrite app_assoc. }
    all: subst F; exists acc; unfold chunked_reader_after; cbn [dt_got dt_end dt_rem dt_rest end_of];
      rewrite app_nil_r; auto.
Qed.

(* C13 for the chunked reader, against the model: when the full-read loop of the model on the
   logical stream is determinate (dec_fn = DFOk; fuel S (length) always suffices), the operational
   loop over ANY segmentation with ANY buffer-size policy obtains the same bytes, ends the same
   way, and leaves the same decoder state and the same logical stream *)
Corollary dec_take_agrees_with_model c sz n m rem br al F : wf br -> (forall h, 0 < sz h) -> 0 < n ->
  rem <> Some 0%N ->
  dec_fn (S (List.length (contents br))) m rem (contents br) (br_eof br) = DFOk F ->
  exists acc1 br' acc2,
    dec_take sz m rem br = Some (acc1, dt_end F, dt_rem F, br') /\
    take c (S (List.length (contents br))) m n (BChunked rem false) (st_of br) al []
      = (acc2, dt_end F, chunked_reader_after c F, st_of br', al) /\
    pieces_bytes acc1 = pieces_bytes acc2 /\ pieces_bytes acc1 = dt_got F /\ wf br'.
Proof.
  intros Hwf Hsz Hn Hrem H.
  destruct (dec_take_fn_spec sz m rem br _ _ _ F (holds_now br Hwf) Hsz Hrem H) as (acc1 & br' & R1 & P1 & Hbr').
  destruct (take_chunked_fn c n Hn (S (List.length (contents br))) m rem (contents br) (br_eof br) al []
              _ F Hrem ltac:(lia) H) as (acc2 & R2 & P2).
  exists acc1, br', acc2. rewrite (holds_st_of _ _ _ Hbr'), P1, P2. repeat split; auto. apply Hbr'.
Qed.
