(* Conc/SeqWriterStepFacts.v — one-step facts about the sequential-writer chain (Conc/SeqWriter.v, repaired tree,
   `fixed = true`) that make a lock-step replay of the REAL chain against the model meaningful:
   - enabledness, exactly: on a state satisfying the invariant an operation of writer i is enabled iff writer i
     exists, is not dropped and every earlier writer is dropped (`ready`);
   - "blocked" is stable: while an earlier writer k is undropped the operation stays disabled, and only `DropW k`
     can change that.
   What a successful Write / Flush / DropW changes is said, exactly, by `step_true_inversion` in Conc/SeqWriterFacts.v. *)
From Coq Require Import List Arith Bool Lia.
Import ListNotations.
From TH Require Import Conc.SeqWriter Conc.SeqWriterFacts.

Local Arguments dropped {byte}.
Local Arguments ws {byte}.
Local Arguments stream {byte}.
Local Arguments New {byte}.
Local Arguments DropW {byte}.
Local Arguments step {byte}.
Local Arguments Inv {byte}.
Local Arguments label_index {byte}.
Local Arguments is_drop {byte}.
Local Arguments least_undropped {byte}.

Section StepFacts.
Variable byte : Type.
Notation wr := (SeqWriter.wr byte).
Notation st := (SeqWriter.st byte).
Notation label := (SeqWriter.label byte).
Notation fresh := (fresh byte).
Implicit Types (s : st) (w wk : wr) (l op : label).

Definition ready s (i : nat) : Prop :=
  exists w, nth_error (ws s) i = Some w /\ dropped w = false /\
    (forall k wk, k < i -> nth_error (ws s) k = Some wk -> dropped wk = true).

Lemma ready_least s i : ready s i <-> least_undropped (ws s) = Some i.
Proof.
  split.
  - intros (w & Hi & Hd & Hb). exact (least_undropped_intro byte _ i w Hi Hd Hb).
  - intros H. destruct (least_undropped_some byte _ _ H) as ((w & Hi & Hd) & Hb). exists w. auto.
Qed.

Lemma ready_unique s i j : ready s i -> ready s j -> i = j.
Proof. intros Hi Hj. apply ready_least in Hi, Hj. congruence. Qed.

Lemma is_drop_index i l : is_drop i l = true -> label_index l = Some i.
Proof. intros H. apply is_drop_true in H. now subst. Qed.

Lemma new_effect fixed s : step fixed s New = Some {| SeqWriter.ws := ws s ++ [fresh]; SeqWriter.stream := stream s |}.
Proof. reflexivity. Qed.

Lemma upd_effect (l : list wr) i w w' : nth_error l i = Some w ->
  length (upd l i w') = length l /\ nth_error (upd l i w') i = Some w' /\
  (forall j, j <> i -> nth_error (upd l i w') j = nth_error l j).
Proof.
  intros Hi. split; [apply upd_length|]. split.
  - exact (nth_upd_at l i w w' Hi).
  - intros j Hj. apply nth_upd_other. congruence.
Qed.

Lemma ready_step_some s op i : label_index op = Some i -> ready s i -> step true s op <> None.
Proof.
  intros Hl Hr. apply ready_least in Hr.
  apply enabled_some. exact (least_undropped_op_enabled byte s i op Hr Hl).
Qed.

Lemma enabled_iff s op i : Inv s -> label_index op = Some i -> (step true s op <> None <-> ready s i).
Proof.
  intros HI Hl. split; [intros H|now apply ready_step_some].
  destruct (step true s op) as [s'|] eqn:E; [|congruence].
  destruct (step_true_inversion byte s op i s' Hl E) as (w & Hi & Hd & Hg & _).
  exists w. split; [exact Hi|]. split; [exact Hd|]. exact (can_go_preds byte s i w HI Hi Hg).
Qed.

Lemma earlier_undropped_blocks s op i k wk : Inv s -> label_index op = Some i ->
  k < i -> nth_error (ws s) k = Some wk -> dropped wk = false -> step true s op = None.
Proof.
  intros HI Hl Hk Hnk Hd. destruct (step true s op) as [s'|] eqn:E; [|reflexivity]. exfalso.
  assert (Hr : ready s i) by (apply (enabled_iff s op i HI Hl); congruence).
  destruct Hr as (_ & _ & _ & Hb). rewrite (Hb k wk Hk Hnk) in Hd. discriminate.
Qed.

Lemma blocked_has_blocker s op i w : label_index op = Some i -> nth_error (ws s) i = Some w -> dropped w = false ->
  step true s op = None -> exists k, k < i /\ ready s k.
Proof.
  intros Hl Hi Hd Hnone.
  destruct (least_undropped (ws s)) as [k|] eqn:El.
  - apply ready_least in El. pose proof El as (_ & _ & _ & Hb).
    destruct (Nat.lt_trichotomy k i) as [Hlt|[->|Hgt]].
    + exists k. auto.
    + exfalso. now apply (ready_step_some s op i Hl El).
    + rewrite (Hb i w Hgt Hi) in Hd. discriminate.
  - rewrite (least_undropped_none byte _ El i w Hi) in Hd. discriminate.
Qed.

Lemma undropped_stable s l s' k wk : step true s l = Some s' ->
  nth_error (ws s) k = Some wk -> dropped wk = false -> l <> DropW k ->
  exists wk', nth_error (ws s') k = Some wk' /\ dropped wk' = false.
Proof.
  intros H Hk Hd Hl. destruct (label_index_dec byte l k) as [El|El].
  - destruct (step_true_inversion byte s l k s' El H) as (w & Hi & _ & _ & ->). cbn.
    eexists. split; [exact (nth_upd_at _ k _ _ Hi)|]. cbn.
    destruct (is_drop k l) eqn:Ed; [|reflexivity]. apply is_drop_true in Ed. contradiction.
  - exists wk. split; [exact (step_frame byte true s l s' k wk H El Hk)|exact Hd].
Qed.

Lemma blocked_stable s op i k wk : Inv s -> label_index op = Some i ->
  k < i -> nth_error (ws s) k = Some wk -> dropped wk = false ->
  step true s op = None /\
  forall l s', step true s l = Some s' -> l <> DropW k ->
    (exists wk', nth_error (ws s') k = Some wk' /\ dropped wk' = false) /\ step true s' op = None.
Proof.
  intros HI Hl Hk Hnk Hd. split.
  - exact (earlier_undropped_blocks s op i k wk HI Hl Hk Hnk Hd).
  - intros l s' Hstep Hne.
    destruct (undropped_stable s l s' k wk Hstep Hnk Hd Hne) as (wk' & Hnk' & Hd').
    split; [eauto|].
    exact (earlier_undropped_blocks s' op i k wk' (step_inv byte s l s' HI Hstep) Hl Hk Hnk' Hd').
Qed.

Lemma unblocked_only_by_drop s op i k wk l s' : Inv s -> label_index op = Some i ->
  k < i -> nth_error (ws s) k = Some wk -> dropped wk = false ->
  step true s l = Some s' -> step true s' op <> None -> l = DropW k.
Proof.
  intros HI Hl Hk Hnk Hd Hstep Hen.
  destruct (blocked_stable s op i k wk HI Hl Hk Hnk Hd) as (_ & Hst).
  destruct (is_drop k l) eqn:E; [now apply is_drop_true|]. exfalso.
  apply Hen, (Hst l s' Hstep). intros ->. cbn in E. now rewrite Nat.eqb_refl in E.
Qed.

End StepFacts.
