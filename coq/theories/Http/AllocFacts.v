(* Http/AllocFacts.v — C14(a): every allocation made on behalf of a client-declared length is at
   most 8192 bytes (repair D6), for every input. Invariant over serve_loop. *)
From TH Require Import Base.Bytes Http.Request Http.Body Http.Serve Http.ServeFacts Http.FramingBodyFacts.
From Coq Require Import Lia.
Open Scope char_scope.

Definition bounded (al : allocs) : Prop := Forall (fun n => (n <= 8192)%N) al.

Lemma framing_buffered_le c hs n bl e : framing c hs = FrOk (KBuffered n) bl e -> (n <= 1024)%N.
Proof.
  intros H. apply framing_kind in H as (u & te & H). symmetry in H. now apply kind_of_buffered in H.
Qed.

Section Bounded.
Variable c : cfg.
Hypothesis D6 : fix_d6 c = true.

Lemma discard_bounded fuel rem st al : bounded al -> bounded (snd (discard c fuel rem st al)).
Proof.
  revert rem st al; induction fuel as [|f IH]; intros rem st al Hal; cbn [discard]; [exact Hal|].
  destruct (rem =? 0)%N; [exact Hal|]. rewrite D6.
  assert (Hb : bounded (N.min rem 8192 :: al)) by (apply Forall_cons; [lia|exact Hal]).
  match goal with |- context [src_read ?n ?s] => destruct (src_read n s) as [[d| | |] st1] end;
    [apply IH|..]; exact Hb.
Qed.

Lemma body_read_bounded n r st al : bounded al -> bounded (snd (body_read c n r st al)).
Proof.
  intros Hal. destruct r as [|d|rem|rem fin|]; cbn [body_read].
  - exact Hal.
  - destruct d; exact Hal.
  - destruct (rem =? 0)%N; [exact Hal|].
    match goal with |- context [src_read ?n ?s] => destruct (src_read n s) as [[d| | |] st1] end;
      try exact Hal.
    pose proof (discard_bounded 1 rem st1 al Hal) as H.
    destruct (discard c 1 rem st1 al) as [st2 al2]. exact H.
  - destruct fin; [exact Hal|].
    destruct (dec_read n rem st) as [[[d| | |] rem'] st1]; exact Hal.
  - destruct (src_read n st) as [x st1]. exact Hal.
Qed.

Lemma body_read_any_bounded n r st al : bounded al -> bounded (snd (body_read_any c n r st al)).
Proof.
  intros Hal. destruct n as [|n]; cbn [body_read_any]; [|apply body_read_bounded, Hal].
  destruct r as [|d|rem|rem fin|]; cbn [body_read_zero]; try exact Hal.
  - destruct (rem =? 0)%N; [exact Hal|]. destruct (sbytes st) as [|b0 b].
    + destruct (seof st); [|exact Hal]. pose proof (discard_bounded 1 rem st al Hal) as H.
      destruct (discard c 1 rem st al). exact H.
    + match goal with |- context [discard c ?f rem st al] =>
        pose proof (discard_bounded f rem st al Hal) as H; destruct (discard c f rem st al) end. exact H.
  - destruct fin; [exact Hal|]. destruct (fix_d4 c); [exact Hal|apply body_read_bounded, Hal].
Qed.

Lemma take_bounded fuel m n r st al acc : bounded al -> bounded (snd (take c fuel m n r st al acc)).
Proof.
  revert m r st al acc; induction fuel as [|f IH]; intros m r st al acc Hal; cbn [take]; [exact Hal|].
  destruct (m =? 0)%N; [exact Hal|].
  match goal with |- context [body_read_any c ?w r st al] =>
    pose proof (body_read_any_bounded w r st al Hal) as H;
    destruct (body_read_any c w r st al) as [[[[d| | |] r1] st1] al1] end; cbn [snd] in *; auto.
Qed.

Lemma do_reads_bounded reads r st al acc e :
  bounded al -> bounded (snd (do_reads c reads r st al acc e)).
Proof.
  revert r st al acc e; induction reads as [|[m n] t IH]; intros r st al acc e Hal; cbn [do_reads];
    [exact Hal|].
  match goal with |- context [take c ?fu m n r st al acc] =>
    pose proof (take_bounded fu m n r st al acc Hal) as H;
    destruct (take c fu m n r st al acc) as [[[[acc1 e1] r1] st1] al1] end; cbn [snd] in H.
  destruct e1; auto.
Qed.

Lemma body_drop_bounded r st al : bounded al -> bounded (snd (body_drop c r st al)).
Proof.
  intros Hal. destruct r as [|d|rem|rem fin|]; cbn [body_drop]; try exact Hal.
  - apply discard_bounded, Hal.
  - destruct (fix_d4 c && negb fin); exact Hal.
Qed.

Definition step_bounded (r : step_result) : Prop :=
  match r with
  | SDone o => bounded (o_allocs o)
  | SCont _ _ _ _ al _ => bounded al
  end.

Lemma handle_bounded date act m ver hs expects rd st1 al1 :
  bounded al1 ->
  bounded (h_al3 (handle c date act m ver hs expects rd st1 al1)) /\
  bounded (h_al4 (handle c date act m ver hs expects rd st1 al1)).
Proof.
  intros Hal.
  destruct (handle_reads c date act m ver hs expects rd st1 al1)
    as (got & e & rd2 & st2 & al2 & rd3 & st3 & E1 & E2 & E3).
  pose proof (do_reads_bounded (a_reads act) rd st1 al1 [] EndCount Hal) as H2.
  rewrite E1 in H2. cbn [snd] in H2.
  pose proof (do_reads_bounded (finish_reads (a_finish act)) rd2 st2 al2 got e H2) as H3.
  rewrite E2 in H3. cbn [snd] in H3.
  pose proof (body_drop_bounded rd3 st3 _ H3) as H4. rewrite E3 in H4.
  split; assumption.
Qed.

Lemma deliver_step_bounded date script dflt wire reqs ok m url ver hs bl expects rd st1 al1 :
  bounded al1 ->
  step_bounded (deliver_step c date script dflt wire reqs ok m url ver hs bl expects rd st1 al1).
Proof.
  intros Hal. unfold deliver_step. destruct (ver_gt_11 ver).
  - destruct (fix_d5 c); [|exact Hal]. destruct (render _ _ _ _ _ _).
    pose proof (body_drop_bounded rd st1 al1 Hal) as H.
    destruct (body_drop c rd st1 al1) as [st2 al2]. exact H.
  - destruct (handle_bounded date (act_of script dflt) m ver hs expects rd st1 al1 Hal) as [H3 H4].
    destruct (handle _ _ _ _ _ _ _ _ _ _) as [w100 m100 wfin mfin al3 got3 e3 st4 al4].
    cbn [h_al3 h_al4] in *.
    destruct e3; try (destruct (last_request ver hs)); cbn [step_bounded o_allocs]; assumption.
Qed.

Lemma serve_step_bounded date script dflt st wire reqs al ok :
  bounded al -> step_bounded (serve_step c date script dflt st wire reqs al ok).
Proof.
  intros Hal. unfold serve_step.
  destruct (read_head c (sbytes st)) as [m url ver hs rest| | | |ver]; try exact Hal.
  - destruct (framing c hs) as [kind bl expects| |] eqn:Ef.
    + destruct kind as [| |n| |]; cbn [built_of]; try (apply deliver_step_bounded; exact Hal).
      assert (Hn : bounded (n :: al)).
      { apply Forall_cons; [|exact Hal]. apply framing_buffered_le in Ef. lia. }
      destruct (n <=? len rest)%N; [apply deliver_step_bounded; exact Hn|].
      destruct (seof st); exact Hn.
    + destruct (render _ _ _ _ _ _); exact Hal.
    + destruct (render _ _ _ _ _ _); exact Hal.
  - destruct (render _ _ _ _ _ _); exact Hal.
Qed.

Lemma serve_loop_bounded date fuel script dflt st wire reqs al ok :
  bounded al -> bounded (o_allocs (serve_loop c date fuel script dflt st wire reqs al ok)).
Proof.
  revert script st wire reqs al ok; induction fuel as [|f IH]; intros script st wire reqs al ok Hal.
  - exact Hal.
  - rewrite serve_loop_S. pose proof (serve_step_bounded date script dflt st wire reqs al ok Hal) as H.
    destruct (serve_step c date script dflt st wire reqs al ok); cbn [run_step step_bounded] in *.
    + exact H.
    + apply IH, H.
Qed.
End Bounded.
