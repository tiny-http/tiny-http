(* Http/TEFacts.v — the TE decision of choose_transfer_encoding equals the reference
   "most preferred supported coding with q > 0, ties by header order". *)
From TH Require Import Base.Bytes Http.Response Http.C05Spec.
From Coq Require Import ZArith Lia.
Open Scope Z_scope.

(* the code's scan, returning the element *)
Fixpoint first_elig (l : list (bytes * Z)) : option (bytes * Z) :=
  match l with [] => None | e :: t => if eligible e then Some e else first_elig t end.

Lemma first_supported_elig l : first_supported l = coding_of (first_elig l).
Proof.
  induction l as [|[n z] t IH]; cbn [first_supported first_elig]; [reflexivity|].
  unfold eligible; cbn [fst snd]. destruct (z <=? 0); cbn [negb andb]; [exact IH|].
  destruct (supported n) eqn:E; cbn [coding_of fst]; [now rewrite E|exact IH].
Qed.

Fixpoint sorted (l : list (bytes * Z)) : Prop :=
  match l with [] => True | y :: t => (forall z, In z t -> snd z <= snd y) /\ sorted t end.

Lemma in_insert x l z : In z (insert_desc x l) -> z = x \/ In z l.
Proof.
  induction l as [|y t IH]; cbn [insert_desc]; intros H.
  - destruct H as [<-|[]]; auto.
  - destruct (snd y <? snd x); cbn [In] in *; intuition auto.
Qed.

Lemma sorted_insert x l : sorted l -> sorted (insert_desc x l).
Proof.
  induction l as [|y t IH]; cbn [insert_desc sorted]; intros H.
  - split; [intros z []|exact I].
  - destruct H as [Hy Ht]. destruct (snd y <? snd x) eqn:E; cbn [sorted].
    + split; [|split; assumption]. intros z [<-|Hz]; [lia|]. specialize (Hy z Hz). lia.
    + split; [|apply IH; assumption]. intros z Hz. apply in_insert in Hz as [->|Hz]; [lia|auto].
Qed.

Lemma sort_desc_snoc l x : sort_desc (l ++ [x]) = insert_desc x (sort_desc l).
Proof. unfold sort_desc. now rewrite fold_left_app. Qed.

Lemma first_argmax_snoc l x : first_argmax (l ++ [x]) = better (first_argmax l) x.
Proof. unfold first_argmax. now rewrite fold_left_app. Qed.

Lemma sorted_sort l : sorted (sort_desc l).
Proof. induction l as [|x l IH] using rev_ind; [exact I|]. rewrite sort_desc_snoc. now apply sorted_insert. Qed.

Lemma first_elig_in l e : first_elig l = Some e -> In e l.
Proof.
  induction l as [|y t IH]; cbn [first_elig]; [discriminate|]. destruct (eligible y).
  - intros [= ->]. now left.
  - intros H. right. auto.
Qed.

Lemma first_elig_insert x l : sorted l ->
  first_elig (insert_desc x l) = if eligible x then better (first_elig l) x else first_elig l.
Proof.
  induction l as [|y t IH]; cbn [insert_desc]; intros Hs.
  - cbn [first_elig better]. destruct (eligible x); reflexivity.
  - destruct Hs as [Hy Ht]. destruct (snd y <? snd x) eqn:E.
    + cbn [first_elig]. destruct (eligible x) eqn:Ex; [|reflexivity].
      destruct (eligible y) eqn:Ey; cbn [better]; [now rewrite E|].
      destruct (first_elig t) as [z|] eqn:Ez; cbn [better]; [|reflexivity].
      apply first_elig_in in Ez. specialize (Hy z Ez).
      destruct (Z.ltb_spec (snd z) (snd x)); [reflexivity|lia].
    + cbn [first_elig]. destruct (eligible y) eqn:Ey.
      * destruct (eligible x); cbn [better]; now rewrite ?E.
      * now apply IH.
Qed.

Lemma first_elig_sort l : first_elig (sort_desc l) = first_argmax (filter eligible l).
Proof.
  induction l as [|x l IH] using rev_ind; [reflexivity|].
  rewrite sort_desc_snoc, first_elig_insert, IH, filter_app by apply sorted_sort. cbn [filter].
  destruct (eligible x); [now rewrite first_argmax_snoc|now rewrite app_nil_r].
Qed.

(* the sort-then-scan of response.rs:144-163 is the reference choice *)
Theorem wish_is_reference l : first_supported (sort_desc l) = ref_wish l.
Proof. unfold ref_wish. now rewrite first_supported_elig, first_elig_sort. Qed.

(* sanity: the entry the reference picks is in the list and no entry has a larger q
   (that the earliest among equals wins rests on the strict comparison in `better`; not proved) *)
Lemma first_argmax_spec l :
  match first_argmax l with
  | None => l = []
  | Some m => In m l /\ forall e, In e l -> snd e <= snd m
  end.
Proof.
  induction l as [|x l IH] using rev_ind; [reflexivity|]. rewrite first_argmax_snoc.
  destruct (first_argmax l) as [m|]; cbn [better].
  - destruct IH as [Hin Hmax]. destruct (Z.ltb_spec (snd m) (snd x)).
    + split; [apply in_or_app; right; now left|].
      intros e He. apply in_app_or in He as [He|[<-|[]]]; [specialize (Hmax e He)|]; lia.
    + split; [apply in_or_app; now left|].
      intros e He. apply in_app_or in He as [He|[<-|[]]]; [auto|lia].
  - subst l. split; [now left|]. intros e [<-|[]]. lia.
Qed.

Theorem first_argmax_none l : first_argmax l = None -> l = [].
Proof. intros H. pose proof (first_argmax_spec l) as A. now rewrite H in A. Qed.
