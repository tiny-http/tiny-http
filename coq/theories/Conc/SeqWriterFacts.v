(* Conc/SeqWriterFacts.v — consequences of the invariant of Conc/SeqWriter.v (sequential-writer chain of
   src/util/sequential.rs) for the repaired tree (`fixed = true`), over ALL label sequences:
   block order of the stream, the unique active writer, nobody writes out of turn, progress of the least
   undropped writer (no deadlock for answers given in arrival order, drop releases the followers),
   a writer is dropped at most once, the block of writer i is exactly the data written through writer i.
   Write, Flush and DropW are treated alike throughout: `step_op_inversion` and `step_true_some` say what an operation of
   writer i needs and does in terms of `label_index`, `is_drop` and `wdata`. *)
From Coq Require Import List Arith Bool Lia.
Import ListNotations.
From TH Require Import Conc.SeqWriter.

Local Arguments turn {byte}.
Local Arguments dropped {byte}.
Local Arguments sent {byte}.
Local Arguments ws {byte}.
Local Arguments stream {byte}.
Local Arguments New {byte}.
Local Arguments Write {byte}.
Local Arguments Flush {byte}.
Local Arguments DropW {byte}.
Local Arguments can_go {byte}.
Local Arguments step {byte}.
Local Arguments run {byte}.
Local Arguments init {byte}.
Local Arguments Inv {byte}.

(* a writer as `New` creates it *)
Notation fresh byte := {| SeqWriter.turn := false; SeqWriter.dropped := false; SeqWriter.sent := @nil byte |}.

Section Facts.
Variable byte : Type.
Notation bytes := (list byte).
Notation wr := (SeqWriter.wr byte).
Notation st := (SeqWriter.st byte).
Notation label := (SeqWriter.label byte).
Implicit Types (s : st) (w wi wj wk : wr) (d : bytes).

Definition reachable (s : st) : Prop := exists ls, run true init ls = Some s.

Lemma run_app fixed (l1 l2 : list label) : forall s,
  run fixed s (l1 ++ l2) = match run fixed s l1 with Some s1 => run fixed s1 l2 | None => None end.
Proof.
  induction l1 as [|l l1 IH]; intros s; cbn; [reflexivity|].
  destruct (step fixed s l) as [s1|]; [apply IH|reflexivity].
Qed.

Lemma reachable_init : reachable init.
Proof. exists []. reflexivity. Qed.

Lemma reachable_run s ls s' : reachable s -> run true s ls = Some s' -> reachable s'.
Proof. intros [l0 H0] H. exists (l0 ++ ls). now rewrite run_app, H0. Qed.

Lemma reachable_step s l s' : reachable s -> step true s l = Some s' -> reachable s'.
Proof. intros Hr H. apply (reachable_run s [l] s' Hr). cbn. now rewrite H. Qed.

Lemma run_init_inv ls s : run true init ls = Some s -> Inv s.
Proof. exact (run_inv byte ls init s (init_inv byte)). Qed.

Lemma reachable_inv s : reachable s -> Inv s.
Proof. intros [ls H]. exact (run_init_inv ls s H). Qed.

Definition label_index (l : label) : option nat :=
  match l with New => None | Write i _ => Some i | Flush i => Some i | DropW i => Some i end.
Definition is_drop (i : nat) (l : label) : bool := match l with DropW j => j =? i | _ => false end.
Definition is_new (l : label) : bool := match l with New => true | _ => false end.
Definition wdata (i : nat) (l : label) : bytes :=
  match l with Write j d => if j =? i then d else [] | _ => [] end.

Lemma label_index_none l : label_index l = None -> l = New.
Proof. destruct l; cbn; intros H; try discriminate; reflexivity. Qed.

Lemma label_index_dec l i : {label_index l = Some i} + {label_index l <> Some i}.
Proof. destruct (label_index l) as [j|]; [destruct (Nat.eq_dec j i) as [->|]|]; auto; right; congruence. Qed.

Lemma is_drop_true i l : is_drop i l = true <-> l = DropW i.
Proof.
  destruct l as [|j d|j|j]; cbn; split; intros H; try discriminate.
  - apply Nat.eqb_eq in H. now subst.
  - inversion H. apply Nat.eqb_refl.
Qed.

Lemma wdata_other i l : label_index l <> Some i -> wdata i l = [].
Proof.
  destruct l as [|j d|j|j]; cbn; auto. intros H. destruct (Nat.eqb_spec j i) as [->|]; [congruence|reflexivity].
Qed.

Lemma step_op_inversion fixed s l i s' : label_index l = Some i -> step fixed s l = Some s' ->
  exists w t, nth_error (ws s) i = Some w /\ dropped w = false /\
    s' = {| SeqWriter.ws := upd (ws s) i {| SeqWriter.turn := t; SeqWriter.dropped := is_drop i l;
                                            SeqWriter.sent := sent w ++ wdata i l |};
            SeqWriter.stream := stream s ++ wdata i l |} /\
    (fixed = true -> t = true /\ can_go (ws s) i w = true).
Proof.
  intros Hl H. destruct l as [|j d|j|j]; [discriminate| | |]; injection Hl as ->; cbn in H;
  apply guarded_some in H as (w & Ei & Ed & Eg & ->); exists w; eexists; cbn;
  rewrite ?Nat.eqb_refl, ?app_nil_r; repeat split; auto.
  (* DropW: the guard is `negb fixed || can_go …`, the new turn flag `turn w || fixed` *)
  all: subst fixed; auto using orb_true_r.
Qed.

Lemma step_true_inversion s l i s' : label_index l = Some i -> step true s l = Some s' ->
  exists w, nth_error (ws s) i = Some w /\ dropped w = false /\ can_go (ws s) i w = true /\
    s' = {| SeqWriter.ws := upd (ws s) i {| SeqWriter.turn := true; SeqWriter.dropped := is_drop i l;
                                            SeqWriter.sent := sent w ++ wdata i l |};
            SeqWriter.stream := stream s ++ wdata i l |}.
Proof.
  intros Hl H. destruct (step_op_inversion true s l i s' Hl H) as (w & t & Hi & Hd & -> & Ht).
  destruct (Ht eq_refl) as (-> & Hg). exists w. auto.
Qed.

Lemma step_true_some s l i w : label_index l = Some i ->
  nth_error (ws s) i = Some w -> dropped w = false -> can_go (ws s) i w = true ->
  step true s l =
    Some {| SeqWriter.ws := upd (ws s) i {| SeqWriter.turn := true; SeqWriter.dropped := is_drop i l;
                                            SeqWriter.sent := sent w ++ wdata i l |};
            SeqWriter.stream := stream s ++ wdata i l |}.
Proof.
  intros Hl Hi Hd Hg. destruct l as [|j d|j|j]; [discriminate| | |]; injection Hl as ->; cbn;
  rewrite Hi, Hd, Hg; cbn; now rewrite ?Nat.eqb_refl, ?app_nil_r, ?orb_true_r.
Qed.

Lemma step_frame fixed s l s' j w : step fixed s l = Some s' -> label_index l <> Some j ->
  nth_error (ws s) j = Some w -> nth_error (ws s') j = Some w.
Proof.
  intros H Hl Hj. destruct (label_index l) as [i|] eqn:El.
  - destruct (step_op_inversion fixed s l i s' El H) as (wi & t & _ & _ & -> & _). cbn.
    rewrite nth_upd_other by congruence. exact Hj.
  - apply label_index_none in El. subst l. inversion H. cbn.
    rewrite nth_error_app1; [exact Hj|]. apply nth_error_Some. congruence.
Qed.

Lemma skipn_nth_error {A} (l : list A) : forall k x, nth_error l k = Some x -> skipn k l = x :: skipn (S k) l.
Proof.
  induction l as [|a l IH]; intros [|k] x H; cbn in H; try discriminate.
  - now inversion H.
  - exact (IH k x H).
Qed.

Lemma firstn_nth_split {A} (l : list A) : forall i j x, i < j -> nth_error l i = Some x ->
  exists m, firstn j l = firstn i l ++ x :: m.
Proof.
  induction l as [|a l IH]; intros [|i] [|j] x Hij H; cbn in *; try lia; try discriminate.
  - inversion H. eauto.
  - destruct (IH i j x) as [m ->]; [lia|exact H|]. eauto.
Qed.

Lemma nth_error_skipn {A} (l : list A) n j : nth_error (skipn n l) j = nth_error l (n + j).
Proof.
  revert l; induction n as [|n IH]; intros l; cbn; [reflexivity|].
  destruct l as [|a l]; [now destruct j|apply IH].
Qed.

Lemma nth_snoc_default {A B} (l : list A) x (f : A -> B) b i : f x = b ->
  match nth_error (l ++ [x]) i with Some a => f a | None => b end = match nth_error l i with Some a => f a | None => b end.
Proof.
  intros Hx. destruct (Nat.lt_ge_cases i (length l)) as [Hl|Hl]; [now rewrite nth_error_app1|].
  rewrite nth_error_app2, (proj2 (nth_error_None l i)) by exact Hl.
  destruct (i - length l) as [|[|m]]; cbn; auto.
Qed.

Lemma stream_split s i wi : Inv s -> nth_error (ws s) i = Some wi ->
  stream s = concat (map sent (firstn i (ws s))) ++ sent wi ++ concat (map sent (skipn (S i) (ws s))).
Proof.
  intros (Hs & _) Hi. rewrite Hs.
  etransitivity; [exact (f_equal (fun l => concat (map sent l)) (eq_sym (firstn_skipn i (ws s))))|].
  now rewrite (skipn_nth_error _ i wi Hi), map_app, concat_app.
Qed.

(* all bytes of writer i precede all bytes of writer j for i < j *)
Lemma stream_blocks_ordered s i j wi wj : Inv s -> i < j ->
  nth_error (ws s) i = Some wi -> nth_error (ws s) j = Some wj ->
  exists mid post,
    stream s = concat (map sent (firstn i (ws s))) ++ sent wi ++ mid ++ sent wj ++ post /\
    concat (map sent (firstn j (ws s))) = concat (map sent (firstn i (ws s))) ++ sent wi ++ mid.
Proof.
  intros HI Hij Hi Hj. destruct (firstn_nth_split (ws s) i j wi Hij Hi) as [m Hm].
  exists (concat (map sent m)), (concat (map sent (skipn (S j) (ws s)))).
  assert (Hc : concat (map sent (firstn j (ws s))) =
               concat (map sent (firstn i (ws s))) ++ sent wi ++ concat (map sent m))
    by now rewrite Hm, map_app, concat_app.
  split; [|exact Hc]. rewrite (stream_split s j wj HI Hj), Hc. now rewrite <- !app_assoc.
Qed.

Definition active (w : wr) : bool := turn w && negb (dropped w).

Lemma undropped_after s i wi : Inv s -> nth_error (ws s) i = Some wi -> dropped wi = false ->
  forall k wk, i < k -> nth_error (ws s) k = Some wk -> turn wk = false /\ dropped wk = false /\ sent wk = [].
Proof.
  intros (_ & Hturn & Hsent & Hdt) Hi Hd k wk Hk Hnk.
  assert (Ht : turn wk = false).
  { destruct (turn wk) eqn:Et; auto. specialize (Hturn k wk Hnk Et i wi Hk Hi). congruence. }
  split; [exact Ht|]. split; [|exact (Hsent k wk Hnk Ht)].
  destruct (dropped wk) eqn:Ed; auto. specialize (Hdt k wk Hnk Ed). congruence.
Qed.

Lemma single_active s i wi : Inv s -> nth_error (ws s) i = Some wi -> turn wi = true -> dropped wi = false ->
  (forall j wj, nth_error (ws s) j = Some wj -> turn wj = true -> dropped wj = false -> j = i) /\
  (forall k wk, k < i -> nth_error (ws s) k = Some wk -> dropped wk = true) /\
  (forall k wk, i < k -> nth_error (ws s) k = Some wk -> turn wk = false /\ dropped wk = false /\ sent wk = []).
Proof.
  intros HI Hi Ht Hd. pose proof HI as (_ & Hturn & _).
  split; [|split; [exact (Hturn i wi Hi Ht)|exact (undropped_after s i wi HI Hi Hd)]].
  intros j wj Hj Htj Hdj. destruct (Nat.lt_trichotomy j i) as [H|[H|H]]; [exfalso|exact H|exfalso].
  - specialize (Hturn i wi Hi Ht j wj H Hj). congruence.
  - specialize (Hturn j wj Hj Htj i wi H Hi). congruence.
Qed.

Lemma only_active_writes s i d s' : Inv s -> step true s (Write i d) = Some s' ->
  (forall j wj, j < i -> nth_error (ws s) j = Some wj -> dropped wj = true) /\
  (forall j, j <> i -> nth_error (ws s') j = nth_error (ws s) j) /\
  (exists w w', nth_error (ws s) i = Some w /\ nth_error (ws s') i = Some w' /\
     dropped w = false /\ sent w' = sent w ++ d /\ active w' = true) /\
  stream s' = stream s ++ d.
Proof.
  intros HI H. apply (step_true_inversion s _ i) in H as (w & Ei & Ed & Eg & ->); [|reflexivity].
  cbn. rewrite Nat.eqb_refl. repeat split.
  - exact (can_go_preds byte s i w HI Ei Eg).
  - intros j Hj. apply nth_upd_other. congruence.
  - exists w. eexists. split; [exact Ei|]. split; [exact (nth_upd_at _ i _ _ Ei)|].
    cbn. auto.
Qed.

Fixpoint least_undropped (l : list wr) : option nat :=
  match l with
  | [] => None
  | w :: t => if dropped w then option_map S (least_undropped t) else Some 0
  end.

Lemma least_undropped_some l : forall i, least_undropped l = Some i ->
  (exists w, nth_error l i = Some w /\ dropped w = false) /\
  (forall k wk, k < i -> nth_error l k = Some wk -> dropped wk = true).
Proof.
  induction l as [|a l IH]; intros i H; cbn in H; [discriminate|].
  destruct (dropped a) eqn:Ed.
  - destruct (least_undropped l) as [m|] eqn:El; [|discriminate]. cbn in H. inversion H; subst i.
    destruct (IH m eq_refl) as ((w & Hw & Hd) & Hb). split.
    + exists w. auto.
    + intros [|k] wk Hk Hn; cbn in Hn; [now inversion Hn; subst|]. apply (Hb k); auto; lia.
  - inversion H; subst i. split; [exists a; auto|]. intros k wk Hk; lia.
Qed.

Lemma least_undropped_none l : least_undropped l = None ->
  forall k wk, nth_error l k = Some wk -> dropped wk = true.
Proof.
  induction l as [|a l IH]; intros H k wk Hn; [now destruct k|]. cbn in H.
  destruct (dropped a) eqn:Ed; [|discriminate].
  destruct (least_undropped l) eqn:El; [discriminate|].
  destruct k as [|k]; cbn in Hn; [now inversion Hn; subst|]. eapply IH; eauto.
Qed.

Lemma all_dropped_least l : (forall k wk, nth_error l k = Some wk -> dropped wk = true) -> least_undropped l = None.
Proof.
  intros H. destruct (least_undropped l) as [m|] eqn:El; [|reflexivity].
  destruct (least_undropped_some _ _ El) as ((w & Hm & Hd) & _). rewrite (H m w Hm) in Hd. discriminate.
Qed.

Lemma least_undropped_intro l i w : nth_error l i = Some w -> dropped w = false ->
  (forall k wk, k < i -> nth_error l k = Some wk -> dropped wk = true) -> least_undropped l = Some i.
Proof.
  revert i; induction l as [|a l IH]; intros [|i] Hn Hd Hb; cbn in *; try discriminate.
  - inversion Hn; subst a. now rewrite Hd.
  - rewrite (Hb 0 a) by (auto; lia). rewrite (IH i); auto.
    intros k wk Hk Hnk. apply (Hb (S k)); auto; lia.
Qed.

Definition dropped_at (s : st) (i : nat) : bool :=
  match nth_error (ws s) i with Some w => dropped w | None => false end.

(* `least_undropped` read through `dropped_at` *)
Lemma least_undropped_at s m : least_undropped (ws s) = Some m ->
  m < length (ws s) /\ dropped_at s m = false /\ forall k, k < m -> dropped_at s k = true.
Proof.
  intros H. destruct (least_undropped_some _ _ H) as ((w & Hm & Hd) & Hb).
  assert (Hlt : m < length (ws s)) by (apply nth_error_Some; congruence).
  unfold dropped_at. rewrite Hm. repeat split; auto. intros k Hk.
  destruct (nth_error (ws s) k) as [wk|] eqn:Ek; [exact (Hb k wk Hk Ek)|]. apply nth_error_None in Ek. lia.
Qed.

Lemma all_dropped_at s k : least_undropped (ws s) = None -> k < length (ws s) -> dropped_at s k = true.
Proof.
  intros H Hk. unfold dropped_at.
  destruct (nth_error (ws s) k) as [w|] eqn:Ek; [exact (least_undropped_none _ H k w Ek)|]. apply nth_error_None in Ek. lia.
Qed.

Lemma preds_dropped_can_go (l : list wr) i w : nth_error l i = Some w ->
  (forall k wk, k < i -> nth_error l k = Some wk -> dropped wk = true) -> can_go l i w = true.
Proof.
  intros Hi Hb. unfold can_go. apply orb_true_iff. right. destruct i as [|j]; cbn; [reflexivity|].
  destruct (nth_error l j) as [wj|] eqn:Ej.
  - apply (Hb j); auto.
  - exfalso. apply nth_error_None in Ej. assert (S j < length l) by (apply nth_error_Some; congruence). lia.
Qed.

Definition enabled (s : st) (l : label) : Prop := exists s', step true s l = Some s'.

Lemma enabled_some s l : enabled s l <-> step true s l <> None.
Proof.
  unfold enabled. destruct (step true s l) as [s1|].
  - split; [discriminate|eauto].
  - split; [intros [s' H]; discriminate|congruence].
Qed.

Lemma least_undropped_op_enabled s i l : least_undropped (ws s) = Some i -> label_index l = Some i -> enabled s l.
Proof.
  intros H Hl. destruct (least_undropped_some _ _ H) as ((w & Hi & Hd) & Hb).
  unfold enabled. rewrite (step_true_some s l i w Hl Hi Hd (preds_dropped_can_go _ _ _ Hi Hb)). eauto.
Qed.

Lemma least_undropped_enabled s i : least_undropped (ws s) = Some i ->
  (forall d, enabled s (Write i d)) /\ enabled s (Flush i) /\ enabled s (DropW i).
Proof. intros H. repeat split; intros; now apply (least_undropped_op_enabled s i). Qed.

(* the operations one thread performs on one writer: writes and flushes, then the drop *)
Inductive op := OWrite (d : bytes) | OFlush.
Definition lab (i : nat) (o : op) : label := match o with OWrite d => Write i d | OFlush => Flush i end.
Definition op_data (o : op) : bytes := match o with OWrite d => d | OFlush => [] end.
Definition data (ops : list op) : bytes := concat (map op_data ops).
Definition answer (i : nat) (ops : list op) : list label := map (lab i) ops ++ [DropW i].
Fixpoint arrival (k : nat) (opss : list (list op)) : list label :=
  match opss with [] => [] | ops :: r => answer k ops ++ arrival (S k) r end.

Lemma lab_spec i o : label_index (lab i o) = Some i /\ is_drop i (lab i o) = false /\ wdata i (lab i o) = op_data o.
Proof. destruct o; cbn; now rewrite ?Nat.eqb_refl. Qed.

Lemma upd_upd {A} (l : list A) i x y : upd (upd l i x) i y = upd l i y.
Proof. revert i; induction l as [|a l IH]; intros [|i]; cbn; auto. now rewrite IH. Qed.

Lemma answer_runs i ops : forall s w,
  nth_error (ws s) i = Some w -> dropped w = false ->
  (forall k wk, k < i -> nth_error (ws s) k = Some wk -> dropped wk = true) ->
  run true s (answer i ops) =
    Some {| SeqWriter.ws := upd (ws s) i {| SeqWriter.turn := true; SeqWriter.dropped := true;
                                            SeqWriter.sent := sent w ++ data ops |};
            SeqWriter.stream := stream s ++ data ops |}.
Proof.
  induction ops as [|o ops IH]; intros s w Hi Hd Hb; pose proof (preds_dropped_can_go _ _ _ Hi Hb) as Hg;
  unfold answer; cbn [map app run].
  - rewrite (step_true_some s (DropW i) i w eq_refl Hi Hd Hg). cbn. now rewrite Nat.eqb_refl.
  - destruct (lab_spec i o) as (Hl & Hnd & Hw).
    rewrite (step_true_some s (lab i o) i w Hl Hi Hd Hg), Hnd, Hw. fold (answer i ops).
    match goal with |- context [run true ?x _] => set (s1 := x) end.
    rewrite (IH s1 _ (nth_upd_at _ i _ _ Hi) eq_refl); cbn.
    + unfold data. cbn [map concat]. now rewrite upd_upd, <- !app_assoc.
    + intros k wk Hk Hn. rewrite nth_upd_other in Hn by lia. exact (Hb k wk Hk Hn).
Qed.

(* answers given in arrival order never block: writers k, k+1, ... each perform arbitrary writes and flushes
   and are then dropped *)
Lemma arrival_runs opss : forall k s,
  length (ws s) = k + length opss ->
  (forall j wj, nth_error (ws s) j = Some wj -> dropped wj = (j <? k)) ->
  exists s', run true s (arrival k opss) = Some s' /\
    stream s' = stream s ++ concat (map data opss) /\
    length (ws s') = length (ws s) /\
    (forall j wj, nth_error (ws s') j = Some wj -> dropped wj = true) /\
    (forall j, j < k -> nth_error (ws s') j = nth_error (ws s) j).
Proof.
  induction opss as [|ops r IH]; intros k s Hlen Hdr.
  - exists s. cbn. rewrite app_nil_r. repeat split; auto.
    intros j wj Hn. rewrite (Hdr j wj Hn). apply Nat.ltb_lt.
    assert (j < length (ws s)) by (apply nth_error_Some; congruence). cbn in Hlen. lia.
  - cbn [arrival]. rewrite run_app. cbn [length] in Hlen.
    destruct (nth_error (ws s) k) as [w|] eqn:Ek; [|apply nth_error_None in Ek; lia].
    assert (Hd : dropped w = false) by (rewrite (Hdr k w Ek); apply Nat.ltb_irrefl).
    assert (Hb : forall j wj, j < k -> nth_error (ws s) j = Some wj -> dropped wj = true).
    { intros j wj Hj Hn. rewrite (Hdr j wj Hn). now apply Nat.ltb_lt. }
    rewrite (answer_runs k ops s w Ek Hd Hb).
    match goal with |- context [run true ?x _] => set (s1 := x) end.
    destruct (IH (S k) s1) as (s' & Hrun' & Hstr' & Hl' & Hall & Hlow).
    { cbn. rewrite upd_length. lia. }
    { intros j wj Hn. cbn in Hn. apply nth_upd_cases in Hn as [(-> & -> & _)|(Hne & Hn)].
      - symmetry. apply Nat.ltb_lt. lia.
      - rewrite (Hdr j wj Hn). destruct (Nat.ltb_spec j k), (Nat.ltb_spec j (S k)); auto; lia. }
    exists s'. split; [exact Hrun'|]. cbn [map concat]. repeat split; auto.
    + rewrite Hstr'. cbn. now rewrite app_assoc.
    + rewrite Hl'. cbn. apply upd_length.
    + intros j Hj. rewrite (Hlow j) by lia. cbn. apply nth_upd_other. lia.
Qed.

Lemma least_undropped_profile s k : Inv s -> least_undropped (ws s) = Some k ->
  forall j wj, nth_error (ws s) j = Some wj -> dropped wj = (j <? k).
Proof.
  intros HI H j wj Hn. destruct (least_undropped_some _ _ H) as ((w & Hk & Hd) & Hb).
  destruct (Nat.lt_trichotomy j k) as [Hlt|[->|Hgt]].
  - rewrite (Hb j wj Hlt Hn). symmetry. now apply Nat.ltb_lt.
  - rewrite Hk in Hn. inversion Hn; subst wj. rewrite Hd. symmetry. apply Nat.ltb_irrefl.
  - destruct (undropped_after s k w HI Hk Hd j wj Hgt Hn) as (_ & Hdj & _). rewrite Hdj.
    symmetry. apply Nat.ltb_ge. lia.
Qed.

Lemma arrival_order_no_deadlock s k opss : Inv s ->
  least_undropped (ws s) = Some k -> length (ws s) = k + length opss ->
  exists s', run true s (arrival k opss) = Some s' /\
    stream s' = stream s ++ concat (map data opss) /\
    length (ws s') = length (ws s) /\
    least_undropped (ws s') = None.
Proof.
  intros HI H Hlen.
  destruct (arrival_runs opss k s Hlen (least_undropped_profile s k HI H)) as (s' & Hrun & Hstr & Hl & Hall & _).
  exists s'. repeat split; auto. now apply all_dropped_least.
Qed.

Definition drop_from (k n : nat) : list label := map DropW (seq k n).

Lemma drop_from_arrival n : forall k, drop_from k n = arrival k (repeat [] n).
Proof.
  induction n as [|n IH]; intros k; [reflexivity|]. unfold drop_from in *. cbn. now rewrite IH.
Qed.

Lemma drop_all_runs s k : Inv s -> least_undropped (ws s) = Some k ->
  exists s', run true s (drop_from k (length (ws s) - k)) = Some s' /\
    stream s' = stream s /\ length (ws s') = length (ws s) /\ least_undropped (ws s') = None.
Proof.
  intros HI H. rewrite drop_from_arrival.
  destruct (least_undropped_at s k H) as (Hk & _).
  destruct (arrival_order_no_deadlock s k (repeat [] (length (ws s) - k)) HI H) as (s' & Hrun & Hstr & Hl & Hn).
  { rewrite repeat_length. lia. }
  exists s'. repeat split; auto. rewrite Hstr.
  assert (Hz : forall m, concat (map data (repeat [] m)) = []) by (induction m; cbn; auto).
  now rewrite Hz, app_nil_r.
Qed.

Lemma drop_releases_follower s i s' w1 : Inv s -> step true s (DropW i) = Some s' ->
  nth_error (ws s) (S i) = Some w1 ->
  least_undropped (ws s') = Some (S i) /\
  (forall d, enabled s' (Write (S i) d)) /\ enabled s' (Flush (S i)) /\ enabled s' (DropW (S i)).
Proof.
  intros HI H H1.
  assert (Hl : least_undropped (ws s') = Some (S i)).
  { apply (step_true_inversion s _ i) in H as (w & Ei & Ed & Eg & ->); [|reflexivity]. cbn.
    destruct (undropped_after s i w HI Ei Ed (S i) w1 ltac:(lia) H1) as (_ & Hd1 & _).
    apply (least_undropped_intro _ (S i) w1); auto.
    - rewrite nth_upd_other by lia. exact H1.
    - intros k wk Hk Hn. apply nth_upd_cases in Hn as [(-> & -> & _)|(Hne & Hn)]; [apply Nat.eqb_refl|].
      apply (can_go_preds byte s i w HI Ei Eg k wk); auto; lia. }
  split; [exact Hl|]. now apply least_undropped_enabled.
Qed.

Lemma dropped_disabled fixed s i w l : nth_error (ws s) i = Some w -> dropped w = true ->
  label_index l = Some i -> step fixed s l = None.
Proof.
  intros Hi Hd Hl. destruct (step fixed s l) as [s'|] eqn:E; [|reflexivity].
  destruct (step_op_inversion fixed s l i s' Hl E) as (w' & _ & Hi' & Hd' & _). congruence.
Qed.

Lemma dropped_frozen_run fixed ls : forall s s' i w, run fixed s ls = Some s' ->
  nth_error (ws s) i = Some w -> dropped w = true ->
  nth_error (ws s') i = Some w /\ Forall (fun l => label_index l <> Some i) ls.
Proof.
  induction ls as [|l ls IH]; intros s s' i w H Hi Hd; cbn in H.
  - inversion H; subst s'. auto.
  - destruct (step fixed s l) as [s1|] eqn:E; [|discriminate].
    assert (Hl : label_index l <> Some i).
    { intros Hl. rewrite (dropped_disabled fixed s i w l Hi Hd Hl) in E. discriminate. }
    destruct (IH s1 s' i w H (step_frame fixed s l s1 i w E Hl Hi) Hd) as (Hi' & Hf). auto.
Qed.

Lemma dropped_once fixed s i ls s' : run fixed s (DropW i :: ls) = Some s' ->
  Forall (fun l => label_index l <> Some i) ls /\
  exists w, nth_error (ws s') i = Some w /\ dropped w = true.
Proof.
  cbn [run]. intros H. destruct (step fixed s (DropW i)) as [s1|] eqn:E; [|discriminate].
  apply (step_op_inversion fixed s _ i) in E as (w & t & Hi & _ & -> & _); [|reflexivity].
  destruct (dropped_frozen_run fixed ls _ s' i _ H (nth_upd_at _ i _ _ Hi) (Nat.eqb_refl i)) as (Hn & Hf).
  split; [exact Hf|]. eexists. split; [exact Hn|]. apply Nat.eqb_refl.
Qed.

Lemma filter_none {A} (f : A -> bool) l : Forall (fun x => f x = false) l -> filter f l = [].
Proof. induction 1 as [|x l Hx _ IH]; cbn; auto. now rewrite Hx. Qed.

Lemma step_dropped_at fixed s l s' i : step fixed s l = Some s' -> dropped_at s' i = dropped_at s i || is_drop i l.
Proof.
  unfold dropped_at. intros H. destruct (label_index l) as [j|] eqn:El.
  - destruct (step_op_inversion fixed s l j s' El H) as (w & t & Hj & Hd & -> & _). cbn.
    destruct (Nat.eq_dec j i) as [->|Hne].
    + now rewrite (nth_upd_at _ i _ _ Hj), Hj, Hd.
    + rewrite nth_upd_other by exact Hne. destruct (is_drop i l) eqn:Ed; [|now rewrite orb_false_r].
      apply is_drop_true in Ed. subst l. cbn in El. congruence.
  - apply label_index_none in El. subst l. injection H as <-. cbn. rewrite orb_false_r.
    now apply nth_snoc_default.
Qed.

Definition writes_of (i : nat) (ls : list label) : bytes := concat (map (wdata i) ls).
Definition sent_at (s : st) (i : nat) : bytes :=
  match nth_error (ws s) i with Some w => sent w | None => [] end.

Lemma writes_of_app i (a b : list label) : writes_of i (a ++ b) = writes_of i a ++ writes_of i b.
Proof. unfold writes_of. now rewrite map_app, concat_app. Qed.

Lemma writes_of_none i ls : Forall (fun l => label_index l <> Some i) ls -> writes_of i ls = [].
Proof.
  unfold writes_of. induction 1 as [|l ls Hl _ IH]; cbn; [reflexivity|]. now rewrite IH, app_nil_r, (wdata_other i l Hl).
Qed.

Lemma writes_of_news i n : writes_of i (repeat New n) = [].
Proof. unfold writes_of. induction n as [|n IH]; cbn; auto. Qed.

Lemma filter_new_repeat n : filter is_new (repeat New n) = repeat New n.
Proof. induction n as [|n IH]; cbn; [reflexivity|now rewrite IH]. Qed.

Lemma step_sent_at fixed s l s' i : step fixed s l = Some s' -> sent_at s' i = sent_at s i ++ wdata i l.
Proof.
  unfold sent_at. intros H. destruct (label_index l) as [j|] eqn:El.
  - destruct (step_op_inversion fixed s l j s' El H) as (w & t & Hj & _ & -> & _). cbn.
    destruct (Nat.eq_dec j i) as [->|Hne].
    + now rewrite (nth_upd_at _ i _ _ Hj), Hj.
    + rewrite nth_upd_other, wdata_other by congruence. now rewrite app_nil_r.
  - apply label_index_none in El. subst l. injection H as <-. cbn. rewrite app_nil_r.
    now apply nth_snoc_default.
Qed.

Lemma run_sent_at fixed ls : forall s s' i, run fixed s ls = Some s' ->
  sent_at s' i = sent_at s i ++ writes_of i ls.
Proof.
  unfold writes_of. induction ls as [|l ls IH]; intros s s' i H; cbn in H.
  - inversion H; subst s'. cbn. now rewrite app_nil_r.
  - destruct (step fixed s l) as [s1|] eqn:E; [|discriminate].
    rewrite (IH s1 s' i H), (step_sent_at fixed s l s1 i E). cbn. now rewrite app_assoc.
Qed.

Lemma sent_is_writes fixed ls s i w : run fixed init ls = Some s -> nth_error (ws s) i = Some w ->
  sent w = writes_of i ls.
Proof.
  intros H Hi. pose proof (run_sent_at fixed ls init s i H) as E. unfold sent_at in E. rewrite Hi in E.
  cbn in E. now destruct i.
Qed.

Lemma map_as_seq {A B} (f : A -> B) (g : nat -> B) (l : list A) :
  (forall i x, nth_error l i = Some x -> f x = g i) -> map f l = map g (seq 0 (length l)).
Proof.
  induction l as [|x l IH] using rev_ind; intros H; [reflexivity|].
  rewrite app_length. cbn [length]. rewrite Nat.add_1_r, seq_S, !map_app. cbn. f_equal.
  - apply IH. intros i y Hn. apply H. rewrite nth_error_app1; auto. apply nth_error_Some. congruence.
  - f_equal. apply H. rewrite nth_error_app2, Nat.sub_diag by lia. reflexivity.
Qed.

(* C01 in terms of the labels alone: the bytes on the socket are, for writer 0, 1, 2, ... in this order,
   everything that was written through that writer *)
Lemma stream_is_per_writer_data ls s : run true init ls = Some s ->
  stream s = concat (map (fun i => writes_of i ls) (seq 0 (length (ws s)))).
Proof.
  intros H. rewrite (ordered_not_interleaved byte ls s H). f_equal.
  apply map_as_seq. intros i w Hi. exact (sent_is_writes true ls s i w H Hi).
Qed.

Lemma step_length fixed s l s' : step fixed s l = Some s' ->
  length (ws s') = length (ws s) + (if is_new l then 1 else 0).
Proof.
  intros H. destruct (label_index l) as [j|] eqn:El.
  - destruct (step_op_inversion fixed s l j s' El H) as (w & t & _ & _ & -> & _). cbn. rewrite upd_length.
    destruct l; [discriminate| | |]; cbn; lia.
  - apply label_index_none in El. subst l. inversion H. cbn. now rewrite app_length.
Qed.

Lemma run_length fixed ls : forall s s', run fixed s ls = Some s' ->
  length (ws s') = length (ws s) + length (filter is_new ls).
Proof.
  induction ls as [|l ls IH]; intros s s' H; cbn in H.
  - inversion H; subst s'. cbn. lia.
  - destruct (step fixed s l) as [s1|] eqn:E; [|discriminate].
    rewrite (IH s1 s' H), (step_length fixed s l s1 E). cbn [filter]. destruct (is_new l); cbn; lia.
Qed.

End Facts.

Section FromStart.
Variable byte : Type.

Lemma run_news fixed n : forall s : SeqWriter.st byte,
  run fixed s (repeat New n) = Some {| SeqWriter.ws := ws s ++ repeat (fresh byte) n; SeqWriter.stream := stream s |}.
Proof.
  induction n as [|n IH]; intros s; cbn [repeat run].
  - rewrite app_nil_r. now destruct s.
  - cbn [step]. rewrite IH. cbn. now rewrite <- app_assoc.
Qed.

(* n requests arrive, then each is answered in arrival order by arbitrary writes and flushes followed by the drop:
   the run never blocks and the socket carries the answers back to back *)
Lemma arrival_from_start (opss : list (list (op byte))) :
  exists s, run true init (repeat New (length opss) ++ arrival byte 0 opss) = Some s /\
    stream s = concat (map (data byte) opss) /\ length (ws s) = length opss /\
    least_undropped byte (ws s) = None.
Proof.
  rewrite run_app, run_news. cbn [ws stream init app].
  set (s0 := {| SeqWriter.ws := repeat (fresh byte) (length opss); SeqWriter.stream := [] |}).
  destruct (arrival_runs byte opss 0 s0) as (s' & Hrun & Hstr & Hl & Hall & _).
  - cbn. now rewrite repeat_length.
  - intros j wj Hn. cbn in Hn. apply nth_error_In, repeat_spec in Hn. now subst wj.
  - exists s'. split; [exact Hrun|]. split; [exact Hstr|]. split; [rewrite Hl; cbn; apply repeat_length|].
    now apply all_dropped_least.
Qed.
End FromStart.
