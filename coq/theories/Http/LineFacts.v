(* Http/LineFacts.v — facts about the string helpers the head parser uses (trim, split, the CRLF
   line reader) and about parse_version / parse_request_line / parse_header. *)
From TH Require Import Base.Bytes Base.BytesFacts Http.Request.
From Coq Require Import Lia.
Open Scope char_scope.

Lemma trim_start_app a b :
  trim_start (a ++ b) = match trim_start a with [] => trim_start b | y => y ++ b end.
Proof.
  induction a as [|c a IH]; cbn [app trim_start]; [reflexivity|].
  destruct (is_ws c); [exact IH|reflexivity].
Qed.

Lemma trim_start_ws w : forallb is_ws w = true -> trim_start w = [].
Proof.
  induction w as [|c w IH]; cbn [forallb trim_start]; [reflexivity|].
  intros [-> H]%andb_true_iff. exact (IH H).
Qed.

Lemma trim_start_nonws c x : is_ws c = false -> trim_start (c :: x) = c :: x.
Proof. intros H. cbn [trim_start]. now rewrite H. Qed.

Lemma trim_start_decomp x : exists ws, x = ws ++ trim_start x /\ forallb is_ws ws = true.
Proof.
  induction x as [|c t IH]; [now exists []|]. cbn [trim_start]. destruct (is_ws c) eqn:Ec.
  - destruct IH as (ws & E & Hw). exists (c :: ws). cbn [app forallb]. rewrite Ec, Hw. now rewrite <- E.
  - now exists [].
Qed.

Lemma trim_end_app a b :
  trim_end (a ++ b) = match trim_end b with [] => trim_end a | y => a ++ y end.
Proof.
  unfold trim_end. rewrite !frev_rev, rev_app_distr, trim_start_app.
  destruct (trim_start (rev b)) as [|d t]; [reflexivity|].
  rewrite rev_app_distr, rev_involutive. cbn [rev].
  destruct (rev t ++ [d]) eqn:E; [destruct (rev t); discriminate|reflexivity].
Qed.

Lemma trim_end_cons c x :
  trim_end (c :: x) = match trim_end x with [] => if is_ws c then [] else [c] | y => c :: y end.
Proof.
  change (c :: x) with ([c] ++ x). rewrite trim_end_app. destruct (trim_end x); [|reflexivity].
  unfold trim_end, frev. cbn [rev_append trim_start]. now destruct (is_ws c).
Qed.

Lemma trim_end_ws w : forallb is_ws w = true -> trim_end w = [].
Proof.
  induction w as [|c w IH]; cbn [forallb]; [reflexivity|].
  intros [H1 H2]%andb_true_iff. now rewrite trim_end_cons, (IH H2), H1.
Qed.

Lemma trim_end_app_ws x w : forallb is_ws w = true -> trim_end (x ++ w) = trim_end x.
Proof. intros H. now rewrite trim_end_app, (trim_end_ws w H). Qed.

Lemma trim_end_app_nonws n c r : is_ws c = false -> trim_end (n ++ c :: r) = n ++ c :: trim_end r.
Proof. intros H. rewrite trim_end_app, trim_end_cons, H. now destruct (trim_end r). Qed.

Lemma trim_end_no_ws x : existsb is_ws x = false -> trim_end x = x.
Proof.
  induction x as [|c x IH]; cbn [existsb]; [reflexivity|].
  intros [H1 H2]%orb_false_iff. rewrite trim_end_cons, (IH H2), H1. now destruct x.
Qed.

Lemma trim_end_decomp x : exists w, x = trim_end x ++ w /\ forallb is_ws w = true.
Proof.
  induction x as [|c x (w & E & W)]; [now exists []|].
  rewrite trim_end_cons. destruct (trim_end x) as [|d y]; cbn [app] in E.
  - subst w. destruct (is_ws c) eqn:C; [|now exists x].
    exists (c :: x). cbn [forallb]. now rewrite C.
  - exists w. cbn [app]. now rewrite <- E.
Qed.

Lemma trim_trim_end r : trim (trim_end r) = trim r.
Proof.
  destruct (trim_end_decomp r) as (w & E & W). unfold trim.
  set (t := trim_end r) in *. rewrite E, trim_start_app.
  destruct (trim_start t) as [|d y].
  - now rewrite (trim_start_ws w W).
  - now rewrite trim_end_app_ws.
Qed.

(* v neither begins nor ends with whitespace (the shape of wf_value in HeadFacts.v); blanks inside v stay *)
Lemma trim_inner o1 v o2 :
  forallb is_ws o1 = true -> forallb is_ws o2 = true ->
  match v with [] => true | c :: _ => negb (is_ws c) && negb (is_ws (last v c)) end = true ->
  trim (o1 ++ v ++ o2) = v.
Proof.
  intros H1 H2 Hv. unfold trim. rewrite trim_start_app, (trim_start_ws o1 H1).
  destruct v as [|c v'].
  - cbn [app]. now rewrite (trim_start_ws o2 H2).
  - apply andb_true_iff in Hv as [Hc Hl]. apply negb_true_iff in Hc, Hl.
    replace (trim_start ((c :: v') ++ o2)) with ((c :: v') ++ o2) by (symmetry; now apply trim_start_nonws).
    rewrite (trim_end_app_ws _ o2 H2).
    rewrite (app_removelast_last c (l := c :: v')) by discriminate.
    now rewrite trim_end_app_nonws.
Qed.

Lemma trim_word ws1 y ws2 : forallb is_ws ws1 = true -> forallb is_ws ws2 = true ->
  forallb (fun c => negb (is_ws c)) y = true -> trim (ws1 ++ y ++ ws2) = y.
Proof.
  intros H1 H2 Hy. apply trim_inner; [exact H1|exact H2|]. destruct y as [|c y]; [reflexivity|].
  assert (Hc := Hy). cbn [forallb] in Hc. apply andb_true_iff in Hc as [-> _].
  rewrite (app_removelast_last c (l := c :: y)), forallb_app in Hy by discriminate.
  apply andb_true_iff in Hy as [_ Hl]. cbn [forallb] in Hl. now rewrite andb_true_r in Hl.
Qed.

Lemma trim_decomp x : exists ws1 ws2, x = ws1 ++ trim x ++ ws2 /\ forallb is_ws ws1 = true /\ forallb is_ws ws2 = true.
Proof.
  destruct (trim_start_decomp x) as (ws1 & E1 & H1). destruct (trim_end_decomp (trim_start x)) as (ws2 & E2 & H2).
  exists ws1, ws2. repeat split; [|exact H1|exact H2]. unfold trim. now rewrite <- E2.
Qed.

Definition nosep (c : ascii) (x : bytes) : bool := forallb (fun a => negb (Ascii.eqb a c)) x.

Lemma nosep_app c a b : nosep c (a ++ b) = nosep c a && nosep c b.
Proof. apply forallb_app. Qed.

(* cur is reversed *)
Lemma split_on_aux_app c a x : forall cur, nosep c a = true ->
  split_on_aux c cur (a ++ x) = split_on_aux c (rev a ++ cur) x.
Proof.
  induction a as [|b a IH]; intros cur H; cbn [app rev split_on_aux]; [reflexivity|].
  cbn [nosep forallb] in H. apply andb_true_iff in H as [Hb Ha]. apply negb_true_iff in Hb.
  now rewrite Hb, (IH _ Ha), <- app_assoc.
Qed.

Lemma split_on_sep c a rest : nosep c a = true -> split_on c (a ++ c :: rest) = a :: split_on c rest.
Proof.
  intros H. unfold split_on. rewrite (split_on_aux_app c a _ [] H). cbn [split_on_aux].
  now rewrite Ascii.eqb_refl, frev_rev, app_nil_r, rev_involutive.
Qed.

Lemma split_on_nosep c a : nosep c a = true -> split_on c a = [a].
Proof.
  intros H. pose proof (split_on_aux_app c a [] [] H) as E. rewrite !app_nil_r in E.
  unfold split_on. rewrite E. cbn [split_on_aux]. now rewrite frev_rev, rev_involutive.
Qed.

Lemma split_first_spec c x :
  match split_first c x with
  | (n, Some r) => x = n ++ c :: r /\ nosep c n = true
  | (n, None) => n = x /\ nosep c x = true
  end.
Proof.
  induction x as [|a x IH]; cbn [split_first]; [split; reflexivity|].
  destruct (Ascii.eqb a c) eqn:E.
  - apply Ascii.eqb_eq in E. subst a. split; reflexivity.
  - destruct (split_first c x) as [n [r|]]; destruct IH as [IH1 IH2]; cbn [nosep forallb app]; rewrite E.
    + split; [now rewrite <- IH1|exact IH2].
    + split; [now rewrite IH1|exact IH2].
Qed.

Lemma split_first_skip c n x : nosep c n = true ->
  split_first c (n ++ x) = let '(h, r) := split_first c x in (n ++ h, r).
Proof.
  induction n as [|a n IH]; cbn [app split_first nosep forallb]; intros H; [now destruct (split_first c x)|].
  apply andb_true_iff in H as [Ha Hn]. apply negb_true_iff in Ha.
  rewrite Ha, (IH Hn). now destruct (split_first c x).
Qed.

Lemma split_first_app c n r : nosep c n = true -> split_first c (n ++ c :: r) = (n, Some r).
Proof.
  intros H. rewrite (split_first_skip c n _ H). cbn [split_first]. now rewrite Ascii.eqb_refl, app_nil_r.
Qed.

Lemma split_first_nosep c x : nosep c x = true -> split_first c x = (x, None).
Proof.
  intros H. pose proof (split_first_skip c x [] H) as E. cbn [split_first] in E. now rewrite !app_nil_r in E.
Qed.

Lemma parse_header_trim_end l : parse_header (trim_end l) = parse_header l.
Proof.
  unfold parse_header at 2. pose proof (split_first_spec ":" l) as S.
  destruct (split_first ":" l) as [n [r|]].
  - destruct S as [E Hn]. subst l. rewrite trim_end_app_nonws by reflexivity.
    unfold parse_header. rewrite (split_first_app _ _ _ Hn). now rewrite trim_trim_end.
  - destruct S as [-> Hl]. destruct (trim_end_decomp l) as (w & E & W).
    rewrite E, nosep_app in Hl. apply andb_true_iff in Hl as [Hl _].
    unfold parse_header. now rewrite (split_first_nosep _ _ Hl).
Qed.

Definition version_tokens : list bytes :=
  [s "HTTP/0.9"; s "HTTP/1.0"; s "HTTP/1.1"; s "HTTP/2.0"; s "HTTP/3.0"].

Lemma parse_version_none v : parse_version v = None <-> ~ In v version_tokens.
Proof.
  split.
  - intros H T. unfold version_tokens in T. cbn [In] in T.
    destruct T as [<-|[<-|[<-|[<-|[<-|[]]]]]]; discriminate H.
  - intros H. assert (B : forall t, In t version_tokens -> beq v t = false).
    { intros t T. destruct (beq v t) eqn:E; [|reflexivity]. apply beq_eq in E. now subst t. }
    unfold parse_version. rewrite !B by (unfold version_tokens; cbn [In]; tauto). reflexivity.
Qed.

Lemma parse_version_values v ver : parse_version v = Some ver ->
  In ver [(0, 9); (1, 0); (1, 1); (2, 0); (3, 0)]%N.
Proof.
  unfold parse_version. repeat (destruct (beq v _); [intros [= <-]; cbn [In]; tauto|]). discriminate.
Qed.

Lemma parse_request_line_few x : (List.length (split_on SP x) < 3)%nat -> parse_request_line x = None.
Proof.
  unfold parse_request_line. destruct (split_on SP x) as [|m [|p [|v t]]]; cbn [List.length]; try reflexivity. lia.
Qed.

Lemma parse_request_line_bad_version x m p v t :
  split_on SP x = m :: p :: v :: t -> ~ In v version_tokens -> parse_request_line x = None.
Proof.
  intros E H. unfold parse_request_line. rewrite E. apply parse_version_none in H. now rewrite H.
Qed.

(* no LF directly after a CR (p: the byte before x was a CR) *)
Fixpoint no_crlf_from (p : bool) (x : bytes) : bool :=
  match x with
  | [] => true
  | b :: t => negb (Ascii.eqb b LF && p) && no_crlf_from (Ascii.eqb b CR) t
  end.
Definition no_crlf (x : bytes) : bool := no_crlf_from false x.

(* ASCII and not LF: a string of such bytes is all ASCII and contains no CRLF (line_bytes) *)
Definition line_byte (c : ascii) : bool := is_ascii c && negb (Ascii.eqb c LF).

Lemma line_bytes l : forallb line_byte l = true -> all_ascii l = true /\ no_crlf l = true.
Proof.
  intros H. split.
  - revert H. apply forallb_impl. intros c H. now apply andb_true_iff in H.
  - unfold no_crlf. generalize false. induction l as [|b l IH]; intros p; cbn [no_crlf_from]; [reflexivity|].
    cbn [forallb] in H. apply andb_true_iff in H as [[_ Hb]%andb_true_iff Hl].
    apply negb_true_iff in Hb. rewrite Hb. now apply IH.
Qed.

Lemma read_line_aux_app l rest : forall acc p, no_crlf_from p l = true ->
  read_line_aux acc p (l ++ CR :: LF :: rest) = Some (rev acc ++ l, rest).
Proof.
  induction l as [|b l IH]; intros acc p H.
  - cbn [app read_line_aux]. change (Ascii.eqb CR LF) with false. change (Ascii.eqb CR CR) with true.
    change (Ascii.eqb LF LF) with true. cbn [andb tl]. now rewrite frev_rev, app_nil_r.
  - cbn [no_crlf_from] in H. apply andb_true_iff in H as [Hb Hl]. apply negb_true_iff in Hb.
    cbn [app read_line_aux]. rewrite Hb, (IH _ _ Hl). cbn [rev]. now rewrite <- app_assoc.
Qed.

Lemma read_line_app l rest : no_crlf l = true -> read_line (l ++ CRLF ++ rest) = Some (l, rest).
Proof. apply (read_line_aux_app l rest [] false). Qed.

Lemma read_line_aux_length x : forall acc p l rest,
  read_line_aux acc p x = Some (l, rest) -> (List.length rest < List.length x)%nat.
Proof.
  induction x as [|b x IH]; intros acc p l rest H; cbn [read_line_aux] in H; [discriminate|].
  cbn [List.length]. destruct (Ascii.eqb b LF && p).
  - injection H as _ <-. lia.
  - apply IH in H. lia.
Qed.
Lemma read_line_length x l rest : read_line x = Some (l, rest) -> (List.length rest < List.length x)%nat.
Proof. apply read_line_aux_length. Qed.
