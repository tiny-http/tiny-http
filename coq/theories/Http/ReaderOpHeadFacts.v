(* Http/ReaderOpHeadFacts.v — the operational head reader (request line, header lines) and the
   "head + pre-read small body" reader are functions of the logical stream (C13), and these
   functions are Request.read_head / the KBuffered step of Serve.serve_loop. *)
From TH Require Import Base.Bytes Http.Response Http.Request Http.LineFacts Http.HeadFacts
                       Http.ReaderOp Http.ReaderOpFacts.
From Coq Require Import Lia.
Open Scope char_scope.

(* read_headers_op / read_head_op as functions of the logical stream: Request.read_headers / read_head
   with HeadEof split into HOpEof / HOpBlock by the flag *)
Fixpoint headers_fn (c : cfg) (fuel : nat) (m url : bytes) (ver : version) (acc : list header)
                    (x : bytes) (e : bool) : head_op * bytes :=
  match fuel with
  | O => (HOpFuel, x)
  | S f =>
      match read_line x with
      | None => (if e then HOpEof else HOpBlock, [])
      | Some (l, rest) =>
          if negb (all_ascii l) then (HOpNonAscii, rest) else
          match l with
          | [] => (HOpOk m url ver (frev acc), rest)
          | _ => match parse_header (if fix_d8 c then trim_end l else trim l) with
                 | Some h => headers_fn c f m url ver (h :: acc) rest e
                 | None => (HOpBadHeader ver, rest)
                 end
          end
      end
  end.

Definition head_fn (c : cfg) (x : bytes) (e : bool) : head_op * bytes :=
  match read_line x with
  | None => (if e then HOpEof else HOpBlock, [])
  | Some (l, rest) =>
      if negb (all_ascii l) then (HOpNonAscii, rest) else
      match parse_request_line (trim l) with
      | None => (HOpBadLine, rest)
      | Some (m, url, ver) => headers_fn c (S (List.length rest)) m url ver [] rest e
      end
  end.

Theorem read_headers_op_fn c m url ver : forall f_op f_fn acc br x e,
  holds br x e -> List.length x < f_op -> List.length x < f_fn ->
  exists br', read_headers_op c f_op m url ver acc br = (fst (headers_fn c f_fn m url ver acc x e), br') /\
              holds br' (snd (headers_fn c f_fn m url ver acc x e)) e.
Proof.
  induction f_op as [|f IH]; intros f_fn acc br x e Hbr Hf1 Hf2; [lia|].
  destruct f_fn as [|g]; [lia|]. cbn [read_headers_op headers_fn].
  pose proof (read_line_holds br x e Hbr) as Hb.
  destruct (read_line x) as [[l rest]|] eqn:El.
  - destruct Hb as (br1 & -> & Hbr1). apply read_line_length in El.
    destruct (negb (all_ascii l)); [exists br1; auto|].
    destruct l as [|l0 l]; [exists br1; auto|].
    destruct (parse_header (if fix_d8 c then trim_end (l0 :: l) else trim (l0 :: l))) as [h|];
      [|exists br1; auto].
    apply IH; [exact Hbr1|lia|lia].
  - destruct Hb as (br1 & a & p & -> & Hbr1 & _). exists br1. destruct e; auto.
Qed.

Theorem read_head_op_fn c : computes (read_head_op c) (head_fn c).
Proof.
  intros br x e Hbr. unfold read_head_op, head_fn. pose proof (read_line_holds br x e Hbr) as Hb.
  destruct (read_line x) as [[l rest]|].
  - destruct Hb as (br1 & -> & Hbr1).
    destruct (negb (all_ascii l)); [exists br1; auto|].
    destruct (parse_request_line (trim l)) as [[[m url] ver]|]; [|exists br1; auto].
    apply read_headers_op_fn; [exact Hbr1|exact (br_fuel_gt _ _ _ Hbr1)|lia].
  - destruct Hb as (br1 & a & p & -> & Hbr1 & _). exists br1. destruct e; auto.
Qed.

(* a waiting reader and an aborted one are both HeadEof in Request.v; the stream's flag tells which *)
Definition head_op_of (r : head_result) (e : bool) : head_op :=
  match r with
  | HeadOk m url ver hs _ => HOpOk m url ver hs
  | HeadEof => if e then HOpEof else HOpBlock
  | HeadNonAscii => HOpNonAscii
  | HeadBadLine => HOpBadLine
  | HeadBadHeader v => HOpBadHeader v
  end.

(* with the same fuel on both sides; it does not run out because each line takes at least one byte *)
Lemma headers_fn_read_headers c m url ver e : forall f acc x, List.length x < f ->
  match read_headers c f ver acc x with
  | inr (hs, rest) => headers_fn c f m url ver acc x e = (HOpOk m url ver hs, rest)
  | inl r => fst (headers_fn c f m url ver acc x e) = head_op_of r e /\
             match r with
             | HeadOk _ _ _ _ _ => False
             | HeadEof => snd (headers_fn c f m url ver acc x e) = []
             | _ => True
             end
  end.
Proof.
  induction f as [|f IH]; intros acc x Hf; [lia|]. cbn [read_headers headers_fn].
  destruct (read_line x) as [[l rest]|] eqn:El.
  - apply read_line_length in El. destruct (negb (all_ascii l)); [cbn [fst snd head_op_of]; auto|].
    destruct l as [|l0 l]; [reflexivity|].
    destruct (parse_header (if fix_d8 c then trim_end (l0 :: l) else trim (l0 :: l))) as [h|].
    + apply IH. lia.
    + cbn [fst snd head_op_of]. auto.
  - cbn [fst snd head_op_of]. auto.
Qed.

Theorem head_fn_read_head c x e :
  fst (head_fn c x e) = head_op_of (read_head c x) e /\
  match read_head c x with
  | HeadOk _ _ _ _ rest => snd (head_fn c x e) = rest
  | HeadEof => snd (head_fn c x e) = []
  | _ => True
  end.
Proof.
  unfold head_fn, read_head. destruct (read_line x) as [[l rest]|]; [|cbn [fst snd head_op_of]; auto].
  destruct (negb (all_ascii l)); [cbn [fst snd head_op_of]; auto|].
  destruct (parse_request_line (trim l)) as [[[m url] ver]|]; [|cbn [fst snd head_op_of]; auto].
  pose proof (headers_fn_read_headers c m url ver e (S (List.length rest)) [] rest ltac:(lia)) as H.
  destruct (read_headers c (S (List.length rest)) ver [] rest) as [r|[hs rest']].
  - destruct H as (H1 & H2). split; [exact H1|]. destruct r; auto. contradiction.
  - rewrite H. cbn [fst snd head_op_of]. auto.
Qed.

Corollary head_fn_ok c x e m url ver hs rest :
  read_head c x = HeadOk m url ver hs rest -> head_fn c x e = (HOpOk m url ver hs, rest).
Proof.
  intros H. destruct (head_fn_read_head c x e) as (H1 & H2). rewrite H in H1, H2.
  destruct (head_fn c x e) as [h r]. cbn [fst snd head_op_of] in H1, H2. congruence.
Qed.

(* what new_request does with a head that has been read, over states of any kind: `body n` reads
   the n bytes of a small body *)
Definition after_head {S : Type} (c : cfg) (body : nat -> S -> sbres * S) (h : head_op) (s : S)
  : req_op * S :=
  match h with
  | HOpOk m url ver hs =>
      match framing c hs with
      | FrOk KEmpty _ _ => (RqOk m url ver hs [], s)
      | FrOk (KBuffered n) _ _ =>
          match body (N.to_nat n) s with
          | (SBFull d, s2) => (RqOk m url ver hs d, s2)
          | (b, s2) => (RqBody b, s2)
          end
      | _ => (RqOther, s)
      end
  | h => (RqHead h, s)
  end.

Lemma read_small_request_op_eq c br : read_small_request_op c br =
  let (h, br1) := read_head_op c br in after_head c read_small_body_op h br1.
Proof. unfold read_small_request_op. now destruct (read_head_op c br) as [[] br1]. Qed.

Definition small_request_fn (c : cfg) (x : bytes) (e : bool) : req_op * bytes :=
  let (h, rest) := head_fn c x e in after_head c (fun n r => small_body_fn n [] r e) h rest.

Lemma after_head_fn c h br1 rest e : holds br1 rest e ->
  exists br2, after_head c read_small_body_op h br1
                = (fst (after_head c (fun n r => small_body_fn n [] r e) h rest), br2) /\
              holds br2 (snd (after_head c (fun n r => small_body_fn n [] r e) h rest)) e.
Proof.
  intros Hbr1. destruct h as [m url ver hs| | | | |v|]; cbn [after_head]; try (exists br1; split; [reflexivity|exact Hbr1]).
  destruct (framing c hs) as [[| |n| |] bl ex| |]; try (exists br1; split; [reflexivity|exact Hbr1]).
  destruct (read_small_body_op_fn (N.to_nat n) br1 rest e Hbr1) as (br2 & -> & Hbr2).
  destruct (small_body_fn (N.to_nat n) [] rest e) as [b rest2]. destruct b; exists br2; auto.
Qed.

Theorem read_small_request_op_fn c : computes (read_small_request_op c) (small_request_fn c).
Proof.
  intros br x e Hbr. rewrite read_small_request_op_eq. unfold small_request_fn.
  destruct (read_head_op_fn c br x e Hbr) as (br1 & -> & Hbr1).
  destruct (head_fn c x e) as [h rest]. exact (after_head_fn c h br1 rest e Hbr1).
Qed.

Lemma head_fn_ok_shorter c x e m url ver hs rest :
  head_fn c x e = (HOpOk m url ver hs, rest) -> List.length rest < List.length x.
Proof.
  intros H. destruct (head_fn_read_head c x e) as (H1 & H2). rewrite H in H1, H2. cbn [fst snd] in H1, H2.
  destruct (read_head c x) as [m' u' v' hs' r'| | | |v'] eqn:E; try discriminate H1; [|destruct e; discriminate H1].
  subst r'. exact (read_head_length _ _ _ _ _ _ _ E).
Qed.

Lemma small_request_fn_ok_shorter c x e m url ver hs d rest :
  small_request_fn c x e = (RqOk m url ver hs d, rest) -> List.length rest < List.length x.
Proof.
  unfold small_request_fn. destruct (head_fn c x e) as [h r1] eqn:Eh.
  destruct h as [m0 url0 ver0 hs0| | | | |v|]; cbn [after_head]; try discriminate.
  apply head_fn_ok_shorter in Eh.
  destruct (framing c hs0) as [k bl ex| |]; try discriminate.
  destruct k as [| |n| |]; try discriminate.
  - intros H. inversion H; subst. exact Eh.
  - unfold small_body_fn. destruct (Nat.leb (N.to_nat n) (List.length r1)).
    + intros H. inversion H; subst. rewrite skipn_length. lia.
    + destruct e; discriminate.
Qed.

Lemma small_request_fn_not_fuel c x e rest : small_request_fn c x e <> (RqFuel, rest).
Proof.
  unfold small_request_fn. destruct (head_fn c x e) as [h r1].
  destruct h as [m0 url0 ver0 hs0| | | | |v|]; cbn [after_head]; try discriminate.
  destruct (framing c hs0) as [k bl ex| |]; try discriminate.
  destruct k as [| |n| |]; try discriminate.
  destruct (small_body_fn (N.to_nat n) [] r1 e) as [sb r2]. destruct sb; discriminate.
Qed.

(* what ClientConnection::next does with a request that has been read, over states of any kind:
   `more` reads the requests that follow *)
Definition after_request {S : Type} (more : S -> list req_op * S) (q : req_op) (s : S)
  : list req_op * S :=
  match q with
  | RqOk m url ver hs d =>
      if last_request ver hs then ([q], s) else let '(l, s2) := more s in (q :: l, s2)
  | q => ([q], s)
  end.

Fixpoint requests_fn (c : cfg) (fuel : nat) (x : bytes) (e : bool) : list req_op * bytes :=
  match fuel with
  | O => ([RqFuel], x)
  | S f => let (q, rest) := small_request_fn c x e in
           after_request (fun r => requests_fn c f r e) q rest
  end.

Lemma read_requests_op_S c f br : read_requests_op c (S f) br =
  let (q, br1) := read_small_request_op c br in after_request (read_requests_op c f) q br1.
Proof. cbn [read_requests_op]. now destruct (read_small_request_op c br) as [[] br1]. Qed.

Theorem read_requests_op_fn c : forall f1 f2 br x e,
  holds br x e -> List.length x < f1 -> List.length x < f2 ->
  exists br', read_requests_op c f1 br = (fst (requests_fn c f2 x e), br') /\
              holds br' (snd (requests_fn c f2 x e)) e.
Proof.
  induction f1 as [|f IH]; intros f2 br x e Hbr Hf1 Hf2; [lia|]. destruct f2 as [|g]; [lia|].
  rewrite read_requests_op_S. cbn [requests_fn].
  destruct (read_small_request_op_fn c br x e Hbr) as (br1 & -> & Hbr1).
  destruct (small_request_fn c x e) as [q rest] eqn:Eq. cbn [fst snd] in Hbr1 |- *.
  destruct q as [m url ver hs d|h|b| |]; cbn [after_request]; try (exists br1; split; [reflexivity|exact Hbr1]).
  destruct (last_request ver hs); [exists br1; auto|].
  apply small_request_fn_ok_shorter in Eq.
  destruct (IH g br1 rest e Hbr1) as (br2 & -> & Hbr2); [lia|lia|].
  destruct (requests_fn c g rest e) as [l r2]. exists br2. auto.
Qed.

Theorem read_requests_fn c :
  computes (read_requests c) (fun x e => requests_fn c (S (List.length x)) x e).
Proof. intros br x e Hbr. apply read_requests_op_fn; [exact Hbr|exact (br_fuel_gt _ _ _ Hbr)|lia]. Qed.

Lemma requests_fn_no_fuel c e : forall f x, List.length x < f -> ~ In RqFuel (fst (requests_fn c f x e)).
Proof.
  induction f as [|f IH]; intros x Hf; [lia|]. cbn [requests_fn].
  destruct (small_request_fn c x e) as [q rest] eqn:Eq.
  destruct q as [m url ver hs d|h|b| |]; cbn [after_request fst In]; try (intros [H|[]]; discriminate).
  - destruct (last_request ver hs); [cbn [fst In]; intros [H|[]]; discriminate|].
    apply small_request_fn_ok_shorter in Eq. specialize (IH rest ltac:(lia)).
    destruct (requests_fn c f rest e) as [l r2]. cbn [fst In] in IH |- *. intros [H|H]; [discriminate|auto].
  - destruct (small_request_fn_not_fuel c x e rest Eq).
Qed.
