(* Conc/TaskPoolFacts.v — further facts about the task-pool model Conc/TaskPool.v:
   (1) bookkeeping of task identifiers: `started ++ todo ++ held-by-new-threads` is a permutation of
       the dispatched tasks along every run (both trees), hence with distinct identifiers every task
       is started at most once and never lost (C08 "exactly one worker");
   (2) liveness without TaskDone: from every state satisfying the invariant of the repaired pool a
       schedule of Resume and Start steps only empties the queue and starts every task (C08 "progress
       never depends on another connection ending").
   Schedules are handled through `sched G s s'` (s' is reached from s by labels from G) and the descent
   lemmas `descend` / `sweep`, which Conc/TaskPoolIdle.v (the idle-reclaim facts, C20) uses as well. *)
From Coq Require Import List Arith Bool Lia Permutation.
Import ListNotations.
From TH Require Import Conc.TaskPool.

#[local] Arguments Spawned {task}. #[local] Arguments AtLock {task}. #[local] Arguments Blocked {task}.
#[local] Arguments Woken {task}. #[local] Arguments Running {task}. #[local] Arguments Exiting {task}.
#[local] Arguments Exited {task}. #[local] Arguments Dispatch {task}. #[local] Arguments Start {task}.
#[local] Arguments Lock {task}. #[local] Arguments Resume {task}. #[local] Arguments PoolDrop {task}.
#[local] Arguments Tick {task}. #[local] Arguments todo {task}. #[local] Arguments waiting {task}.
#[local] Arguments active {task}. #[local] Arguments dropped {task}. #[local] Arguments now {task}.
#[local] Arguments ws {task}. #[local] Arguments started {task}.
#[local] Arguments is_woken {task}. #[local] Arguments is_live {task}. #[local] Arguments wake {task}.
#[local] Arguments notify {task}.

Lemma nth_upd_neq {A} (l : list A) i j x : i <> j -> nth_error (upd l i x) j = nth_error l j.
Proof.
  revert i j. induction l as [|a l IH]; intros [|i] [|j] H; cbn; auto; try congruence; try (apply IH; congruence).
Qed.
Lemma upd_length {A} (l : list A) i x : length (upd l i x) = length l.
Proof. revert i. induction l as [|a l IH]; intros [|i]; cbn; auto. Qed.
Lemma Forall_upd {A} (P : A -> Prop) l i x : Forall P l -> P x -> Forall P (upd l i x).
Proof.
  intros H Hx. revert i. induction H as [|a l Ha Hl IH]; intros [|i]; cbn; auto.
Qed.
Lemma nth_Forall {A} (P : A -> Prop) l i r : Forall P l -> nth_error l i = Some r -> P r.
Proof. intros H Hn. eapply Forall_forall; eauto. eapply nth_error_In; eauto. Qed.

Ltac csplit := repeat match goal with |- _ /\ _ => split end.

Section TPF.
Variable task : Type.
Variable MIN IDLE BIG : nat.
Hypothesis BIG_big : MIN < BIG.

Local Notation wstate := (TaskPool.wstate task).
Local Notation st := (TaskPool.st task).
Local Notation label := (TaskPool.label task).
Local Notation step := (TaskPool.step task MIN IDLE BIG).
Local Notation run := (TaskPool.run task MIN IDLE BIG).
Local Notation pop_or_wait := (TaskPool.pop_or_wait task MIN IDLE).
Local Notation Inv := (TaskPool.Inv task MIN).
Local Notation count := (TaskPool.count task).
Local Notation init := (TaskPool.init task MIN).

Lemma cnt_upd (f : wstate -> bool) l i old x : nth_error l i = Some old ->
  count f (upd l i x) + (if f old then 1 else 0) = count f l + (if f x then 1 else 0).
Proof. exact (count_upd task MIN BIG BIG_big f l i old x). Qed.

Lemma cnt_upd_lt (f : wstate -> bool) l i old x : nth_error l i = Some old -> f old = true -> f x = false ->
  count f (upd l i x) < count f l.
Proof. intros Hn Ho Hx. pose proof (cnt_upd f l i old x Hn) as C. rewrite Ho, Hx in C. lia. Qed.

Lemma count_cons (f : wstate -> bool) a l : count f (a :: l) = (if f a then 1 else 0) + count f l.
Proof. unfold TaskPool.count. cbn. destruct (f a); reflexivity. Qed.

Lemma count_pos_nth (f : wstate -> bool) l : 0 < count f l -> exists w r, nth_error l w = Some r /\ f r = true.
Proof.
  clear BIG_big. induction l as [|a l IH]; [unfold TaskPool.count; cbn; lia|]. rewrite count_cons. destruct (f a) eqn:E.
  - intros _. exists 0, a. auto.
  - intros H. destruct IH as (w & r & Hn & Hr); [cbn in H; lia|]. exists (S w), r. auto.
Qed.
Lemma count_zero_Forall (f : wstate -> bool) l : count f l = 0 -> Forall (fun r => f r = false) l.
Proof.
  induction l as [|a l IH]; [constructor|]. rewrite count_cons. destruct (f a) eqn:E; [discriminate|].
  intros H. constructor; auto.
Qed.
Lemma Forall_count_zero (f : wstate -> bool) l : Forall (fun r => f r = false) l -> count f l = 0.
Proof. induction 1 as [|a l Ha Hl IH]; [reflexivity|]. rewrite count_cons, Ha, IH. reflexivity. Qed.

Lemma run_app fixed s a b :
  run fixed s (a ++ b) = match run fixed s a with Some s' => run fixed s' b | None => None end.
Proof. revert s. induction a as [|l a IH]; intros s; cbn; auto. destruct (step fixed s l); auto. Qed.

Definition sched (G : label -> bool) (s s' : st) : Prop :=
  exists ls, Forall (fun l => G l = true) ls /\ run true s ls = Some s'.

Lemma sched_refl G s : sched G s s.
Proof. exists []. split; [constructor|reflexivity]. Qed.
Lemma sched_cons G s l s1 s' : G l = true -> step true s l = Some s1 -> sched G s1 s' -> sched G s s'.
Proof. intros Hl E (ls & F & R). exists (l :: ls). split; [constructor; auto|]. cbn. now rewrite E. Qed.
Lemma sched_trans G s1 s2 s3 : sched G s1 s2 -> sched G s2 s3 -> sched G s1 s3.
Proof.
  intros (a & Fa & Ra) (b & Fb & Rb). exists (a ++ b). split; [apply Forall_app; auto|]. now rewrite run_app, Ra.
Qed.
Lemma sched_weaken (G G' : label -> bool) s s' : (forall l, G l = true -> G' l = true) -> sched G s s' -> sched G' s s'.
Proof. intros HG (ls & F & R). exists ls. split; [|exact R]. eapply Forall_impl; [|exact F]. exact HG. Qed.

(* a measure that some enabled G-step always lowers, without leaving P, can be driven to zero *)
Lemma descend G (m : st -> nat) (P : st -> Prop) :
  (forall s, P s -> 0 < m s -> exists l s', G l = true /\ step true s l = Some s' /\ P s' /\ m s' < m s) ->
  forall s, P s -> exists s', sched G s s' /\ P s' /\ m s' = 0.
Proof.
  intros Hstep s. remember (m s) as n eqn:En. revert s En. induction n as [n IH] using lt_wf_ind. intros s -> HP.
  destruct (Nat.eq_0_gt_0_cases (m s)) as [Hz|Hpos]; [exists s; auto using sched_refl|].
  destruct (Hstep s HP Hpos) as (l & s1 & Hl & E & HP1 & Hlt).
  destruct (IH _ Hlt s1 eq_refl HP1) as (s' & Hs & HP' & Hz). exists s'. eauto using sched_cons.
Qed.
(* in particular the number of workers in a class f, each of which can leave it by its step L w *)
Lemma sweep G (f : wstate -> bool) (L : nat -> label) (P : st -> Prop) :
  (forall w, G (L w) = true) ->
  (forall s w r, P s -> nth_error (ws s) w = Some r -> f r = true ->
     exists s', step true s (L w) = Some s' /\ P s' /\ count f (ws s') < count f (ws s)) ->
  forall s, P s -> exists s', sched G s s' /\ P s' /\ count f (ws s') = 0.
Proof.
  intros HL Hstep. apply (descend G (fun s => count f (ws s))). intros s HP Hpos.
  destruct (count_pos_nth f (ws s) Hpos) as (w & r & Hn & Hr).
  destruct (Hstep s w r HP Hn Hr) as (s' & E & HP' & Hlt). exists (L w), s'. auto.
Qed.

Definition held_one (r : wstate) : list task := match r with Spawned (Some tk) => [tk] | _ => [] end.
Definition held (l : list wstate) : list task := flat_map held_one l.
Definition is_holding (r : wstate) : bool := match r with Spawned (Some _) => true | _ => false end.
Definition dispatched_of (l : label) : list task := match l with Dispatch tk _ => [tk] | _ => [] end.
Definition dispatched (ls : list label) : list task := flat_map dispatched_of ls.
(* every task the pool has been given and where it is now *)
Definition accounted (s : st) : list task := started s ++ todo s ++ held (ws s).

Lemma held_app a b : held (a ++ b) = held a ++ held b.
Proof. apply flat_map_app. Qed.
Lemma held_upd l i old x : nth_error l i = Some old ->
  Permutation (held_one old ++ held (upd l i x)) (held_one x ++ held l).
Proof.
  unfold held. revert i. induction l as [|a l IH]; intros [|i] H; try discriminate; cbn [upd flat_map].
  - injection H as ->. apply Permutation_app_swap_app.
  - rewrite !(Permutation_app_swap_app _ (held_one a)). apply Permutation_app_head, IH, H.
Qed.
Lemma held_map_wake l : held (map wake l) = held l.
Proof. unfold held. induction l as [|a l IH]; cbn; [auto|]. rewrite IH. destruct a; reflexivity. Qed.
Lemma held_repeat_none n : held (repeat (Spawned None) n) = [].
Proof. induction n; cbn; auto. Qed.
Lemma notify_held l w l' : notify l w = Some l' -> Permutation (held l') (held l).
Proof.
  intros H. destruct (notify_cases _ _ _ _ H) as [[_ ->]|(t & r & E & Eb & ->)]; [reflexivity|].
  destruct r; try discriminate. exact (held_upd l t _ (Woken true) E).
Qed.
Lemma held_length l : length (held l) = count is_holding l.
Proof.
  induction l as [|a l IH]; [reflexivity|]. rewrite count_cons. change (held (a :: l)) with (held_one a ++ held l). rewrite app_length, IH.
  destruct a as [[tk|]| | | | | |]; reflexivity.
Qed.
Lemma holding_zero_held l : count is_holding l = 0 -> held l = [].
Proof. rewrite <- held_length. apply length_zero_iff_nil. Qed.
Lemma holding_zero_nth l : count is_holding l = 0 -> forall w tk, nth_error l w <> Some (Spawned (Some tk)).
Proof.
  intros H w tk Hn. apply count_zero_Forall in H. pose proof (nth_Forall _ _ _ _ H Hn) as E. discriminate.
Qed.

(* what a step of worker w changes *)
Definition wmoves (s s' : st) (w : nat) (old x : wstate) : Prop :=
  nth_error (ws s) w = Some old /\ ws s' = upd (ws s) w x /\ dropped s' = dropped s /\ now s' = now s /\
  active s' = inc (negb (is_live old) && is_live x) (dec (is_live old && negb (is_live x)) (active s)) /\
  (forall b d, x = Blocked b d -> d = now s + IDLE) /\ held_one x = [] /\
  Permutation (started s' ++ todo s') (held_one old ++ started s ++ todo s).

Lemma wmoves_intro s w old x td wt stt :
  nth_error (ws s) w = Some old -> (forall b d, x = Blocked b d -> d = now s + IDLE) -> held_one x = [] ->
  Permutation (stt ++ td) (held_one old ++ started s ++ todo s) ->
  wmoves s {| todo := td; waiting := wt;
              active := inc (negb (is_live old) && is_live x) (dec (is_live old && negb (is_live x)) (active s));
              dropped := dropped s; now := now s; ws := upd (ws s) w x; started := stt |} w old x.
Proof. intros. unfold wmoves; cbn [todo started ws dropped now active]. csplit; auto. Qed.

Lemma pop_or_wait_moves s w wt old : nth_error (ws s) w = Some old -> is_live old = true -> held_one old = [] ->
  exists x, wmoves s (pop_or_wait s w wt) w old x.
Proof.
  intros Hn Hl Hh. unfold TaskPool.pop_or_wait. destruct (todo s) as [|tk rest] eqn:Et.
  - pose proof (wmoves_intro s w old (Blocked (MIN <? active s) (now s + IDLE)) [] (S wt) (started s) Hn) as M.
    rewrite Hl, Hh, Et in M. eexists. apply M; [now intros b d [= _ <-]|reflexivity|reflexivity].
  - pose proof (wmoves_intro s w old (Running tk) rest wt (started s ++ [tk]) Hn) as M.
    rewrite Hl, Hh, Et in M. eexists. apply M; [discriminate|reflexivity|now rewrite <- app_assoc].
Qed.

Lemma worker_step fixed s l s' : step fixed s l = Some s' ->
  match l with
  | Dispatch _ _ | PoolDrop | Tick _ => True
  | _ => exists w old x, wmoves s s' w old x
  end.
Proof.
  intros H. destruct l; cbn [TaskPool.step] in H; auto; exists w.
  - destruct (nth_error (ws s) w) as [[[tk|]| | | | | |]|] eqn:En; try discriminate; injection H as <-.
    + exists (Spawned (Some tk)), (Running tk). apply wmoves_intro; [exact En|discriminate|reflexivity|].
      rewrite <- app_assoc. apply Permutation_app_swap_app.
    + exists (Spawned None), AtLock. apply wmoves_intro; auto; discriminate.
  - destruct (nth_error (ws s) w) as [[| | | |tk| |]|] eqn:En; try discriminate; injection H as <-.
    exists (Running tk), AtLock. apply wmoves_intro; auto; discriminate.
  - destruct (nth_error (ws s) w) as [[| | | | | |]|] eqn:En; try discriminate; injection H as <-.
    exists AtLock. now apply pop_or_wait_moves.
  - destruct (nth_error (ws s) w) as [[| |tm d| | | |]|] eqn:En; try discriminate; injection H as <-.
    exists (Blocked tm d), (Woken true). apply wmoves_intro; auto; discriminate.
  - destruct (nth_error (ws s) w) as [[| |[] d| | | |]|] eqn:En; try discriminate. destruct (d <=? now s); [|discriminate].
    injection H as <-. exists (Blocked true d), (Woken false). apply wmoves_intro; auto; discriminate.
  - destruct (nth_error (ws s) w) as [[| | |r| | |]|] eqn:En; try discriminate. exists (Woken r).
    destruct (negb r && match todo s with [] => true | _ => false end); injection H as <-; [|now apply pop_or_wait_moves].
    exists Exiting. apply wmoves_intro; auto; discriminate.
  - destruct (nth_error (ws s) w) as [[| | | | | |]|] eqn:En; try discriminate.
    destruct (dropped s && (active s <=? S MIN)); [discriminate|]. injection H as <-.
    exists Exiting, Exited. apply wmoves_intro; auto; discriminate.
Qed.

Lemma wmoves_accounted s s' w old x : wmoves s s' w old x -> Permutation (accounted s') (accounted s).
Proof.
  intros (Hn & Hw & _ & _ & _ & _ & Hx & P). unfold accounted. rewrite Hw.
  pose proof (held_upd _ _ _ x Hn) as Hh. rewrite Hx in Hh. cbn [app] in Hh.
  rewrite !app_assoc, P, <- Hh, <- (app_assoc (held_one old)). apply Permutation_app_swap_app.
Qed.

Lemma step_accounted fixed s l s' : step fixed s l = Some s' ->
  Permutation (accounted s') (accounted s ++ dispatched_of l).
Proof.
  intros H. pose proof (worker_step fixed s l s' H) as W.
  destruct l; cbn [dispatched_of]; rewrite ?app_nil_r;
    try (destruct W as (w' & old & x & M); exact (wmoves_accounted _ _ _ _ _ M)); clear W; unfold accounted; cbn [TaskPool.step] in H.
  - destruct (dropped s); [discriminate|].
    destruct (if fixed then waiting s <=? length (todo s) else waiting s =? 0).
    + destruct w; inversion H; subst. cbn [todo started ws set_ws].
      rewrite held_app. cbn. rewrite <- !app_assoc. reflexivity.
    + destruct (notify (ws s) w) as [l'|] eqn:En; inversion H; subst. cbn [todo started ws].
      rewrite (notify_held _ _ _ En). rewrite <- !app_assoc. do 2 apply Permutation_app_head. apply Permutation_app_comm.
  - inversion H; subst. cbn [todo started ws]. now rewrite held_map_wake.
  - inversion H; subst. reflexivity.
Qed.

Lemma run_accounted fixed ls : forall s s', run fixed s ls = Some s' ->
  Permutation (accounted s') (accounted s ++ dispatched ls).
Proof.
  induction ls as [|l ls IH]; cbn; intros s s' H.
  - inversion H; subst. now rewrite app_nil_r.
  - destruct (step fixed s l) as [s1|] eqn:E; [|discriminate].
    rewrite (IH _ _ H), (step_accounted _ _ _ _ E). now rewrite <- app_assoc.
Qed.

Lemma accounted_init : accounted init = [].
Proof. unfold accounted; cbn. apply held_repeat_none. Qed.

Lemma NoDup_app_inv {A} (a b : list A) : NoDup (a ++ b) -> NoDup a /\ NoDup b /\ forall x, In x a -> ~ In x b.
Proof.
  induction a as [|y a IH]; cbn; intros H; [repeat split; auto; constructor|].
  inversion H as [|? ? Hy Hab]; subst. destruct (IH Hab) as (Ha & Hb & Hd). split; [|split; [exact Hb|]].
  - constructor; auto. intros Hin. apply Hy, in_or_app. auto.
  - intros x [->|Hx]; [intros Hin; apply Hy, in_or_app; auto|now apply Hd].
Qed.

(* every dispatched task is in exactly one place: started (by exactly one worker step), queued, or held
   by a freshly created thread; with distinct identifiers none is started twice *)
Theorem one_worker_per_task fixed ls s : run fixed init ls = Some s ->
  Permutation (started s ++ todo s ++ held (ws s)) (dispatched ls) /\
  (NoDup (dispatched ls) ->
     NoDup (started s) /\ (forall tk, In tk (started s) -> ~ In tk (todo s)) /\
     (forall tk, In tk (started s) -> ~ In tk (held (ws s))) /\
     NoDup (todo s ++ held (ws s))).
Proof.
  intros H. pose proof (run_accounted _ _ _ _ H) as P. rewrite accounted_init in P. cbn in P. unfold accounted in P.
  split; [exact P|]. intros ND. apply (Permutation_NoDup (Permutation_sym P)) in ND.
  destruct (NoDup_app_inv _ _ ND) as (Ns & Nr & D). split; [exact Ns|]. split; [|split; [|exact Nr]].
  - intros tk Hs Ht. apply (D tk Hs), in_or_app. auto.
  - intros tk Hs Hh. apply (D tk Hs), in_or_app. auto.
Qed.

Definition is_worker_step (l : label) : bool := match l with Start _ | Lock _ | Resume _ => true | _ => false end.
Definition only_worker_steps (ls : list label) : Prop := Forall (fun l => is_worker_step l = true) ls.

Lemma worker_steps_dispatch_nothing ls : only_worker_steps ls -> dispatched ls = [].
Proof. induction 1 as [|l ls Hl _ IH]; [reflexivity|]. change (dispatched (l :: ls)) with (dispatched_of l ++ dispatched ls). rewrite IH. destruct l; try discriminate; reflexivity. Qed.

(* J2 gives an awake worker for the head of the queue; its Resume takes it *)
Lemma drain_todo s : Inv s -> exists s', sched is_worker_step s s' /\ Inv s' /\ todo s' = [].
Proof.
  intros HI. destruct (descend is_worker_step (fun s => length (todo s)) Inv) with (s := s) as (s' & Hs & HI' & Hz); auto.
  - clear s HI. intros s HI Hpos. destruct (todo s) as [|tk rest] eqn:Et; [cbn in Hpos; lia|].
    pose proof HI as (_ & J2 & _). rewrite Et in J2. cbn in J2.
    destruct (count_pos_nth is_woken (ws s)) as (w & r & Hn & Hr); [lia|].
    destruct r as [| | |b| | |]; try discriminate.
    destruct (woken_takes_head task MIN IDLE BIG BIG_big s w b tk rest Hn Et) as (s' & E & _ & Et').
    exists (Resume w), s'. rewrite Et'. csplit; auto. eapply (step_inv task MIN IDLE BIG BIG_big); eauto.
  - exists s'. csplit; auto. now apply length_zero_iff_nil.
Qed.

Lemma start_all_held s : Inv s -> todo s = [] ->
  exists s', sched is_worker_step s s' /\ (Inv s' /\ todo s' = []) /\ count is_holding (ws s') = 0.
Proof.
  intros HI Ht. apply (sweep is_worker_step is_holding Start (fun s => Inv s /\ todo s = [])); auto.
  clear s HI Ht. intros s w r [HI Ht] Hn Hr. destruct r as [[tk|]| | | | | |]; try discriminate.
  destruct (step true s (Start w)) as [s'|] eqn:E; [|cbn in E; rewrite Hn in E; discriminate].
  exists s'. split; [reflexivity|]. pose proof (step_inv task MIN IDLE BIG BIG_big _ _ _ HI E) as HI'.
  cbn in E; rewrite Hn in E; inversion E; subst s'. csplit; auto. eapply cnt_upd_lt; eauto.
Qed.

Theorem no_taskdone_needed s : Inv s ->
  exists ls s', only_worker_steps ls /\ run true s ls = Some s' /\ todo s' = [] /\
                (forall w tk, nth_error (ws s') w <> Some (Spawned (Some tk))) /\ held (ws s') = [] /\ Inv s'.
Proof.
  intros HI. destruct (drain_todo s HI) as (s1 & S1 & I1 & T1).
  destruct (start_all_held s1 I1 T1) as (s2 & S2 & [I2 T2] & Z2).
  destruct (sched_trans _ _ _ _ S1 S2) as (ls & W & R). exists ls, s2. csplit; auto.
  - now apply holding_zero_nth.
  - now apply holding_zero_held.
Qed.
End TPF.
