(* Conc/SeqWriter.v — the sequential-writer chain of src/util/sequential.rs (SequentialWriterBuilder /
   SequentialWriter) as an interleaving transition system over ALL label sequences, any number of
   writers and threads. Labels: New = SequentialWriterBuilder::next (sequential.rs:107-120);
   Write i d / Flush i = SequentialWriter::write / flush (sequential.rs:137-144, 146-153: consume the
   trigger if still held: blocks until the predecessor was dropped; lock; write/flush on the shared
   BufWriter); DropW i = Drop for SequentialWriter (sequential.rs:176-188). `fixed = true`: the repaired
   tree (Drop waits for its own turn, repair D1); `fixed = false`: the tree as found. The one-message
   channel between neighbours is represented by the predecessor's `dropped` flag and the receiver's
   `turn` flag. *)
From Coq Require Import List Arith Bool Lia.
Import ListNotations.

Section SeqW.
Variable byte : Type.
Definition bytes := list byte.

Record wr := { turn : bool; dropped : bool; sent : bytes }.
Record st := { ws : list wr; stream : bytes }.

Inductive label := New | Write (i : nat) (d : bytes) | Flush (i : nat) | DropW (i : nat).

Fixpoint upd {A} (l : list A) (i : nat) (x : A) : list A :=
  match l, i with
  | [], _ => []
  | _ :: t, 0 => x :: t
  | a :: t, S j => a :: upd t j x
  end.

Definition pred_done (l : list wr) (i : nat) : bool :=
  match i with 0 => true | S j => match nth_error l j with Some w => dropped w | None => false end end.

Definition can_go (l : list wr) (i : nat) (w : wr) : bool := turn w || pred_done l i.

Definition step (fixed : bool) (s : st) (l : label) : option st :=
  match l with
  | New => Some {| ws := ws s ++ [{| turn := false; dropped := false; sent := [] |}]; stream := stream s |}
  | Write i d =>
      match nth_error (ws s) i with
      | Some w => if dropped w then None else
          if can_go (ws s) i w then
            Some {| ws := upd (ws s) i {| turn := true; dropped := false; sent := sent w ++ d |};
                    stream := stream s ++ d |}
          else None
      | None => None end
  | Flush i =>
      match nth_error (ws s) i with
      | Some w => if dropped w then None else
          if can_go (ws s) i w then
            Some {| ws := upd (ws s) i {| turn := true; dropped := false; sent := sent w |}; stream := stream s |}
          else None
      | None => None end
  | DropW i =>
      match nth_error (ws s) i with
      | Some w => if dropped w then None else
          if negb fixed || can_go (ws s) i w then
            Some {| ws := upd (ws s) i {| turn := (turn w || fixed); dropped := true; sent := sent w |}; stream := stream s |}
          else None
      | None => None end
  end.

(* the shape Write, Flush and DropW share *)
Lemma guarded_some {A B} (o : option A) (dr g : A -> bool) (f : A -> B) r :
  match o with Some w => if dr w then None else if g w then Some (f w) else None | None => None end = Some r ->
  exists w, o = Some w /\ dr w = false /\ g w = true /\ r = f w.
Proof.
  destruct o as [w|]; [|discriminate]. destruct (dr w) eqn:Ed; [discriminate|].
  destruct (g w) eqn:Eg; [|discriminate]. intros [= <-]. eauto.
Qed.

Fixpoint run (fixed : bool) (s : st) (ls : list label) : option st :=
  match ls with [] => Some s | l :: ls' => match step fixed s l with Some s' => run fixed s' ls' | None => None end end.

Definition init : st := {| ws := []; stream := [] |}.

(* every writer that has (or had) the turn has all predecessors dropped; writers without turn wrote nothing *)
Definition Inv (s : st) : Prop :=
  stream s = concat (map sent (ws s)) /\
  (forall j w, nth_error (ws s) j = Some w -> turn w = true -> forall k wk, k < j -> nth_error (ws s) k = Some wk -> dropped wk = true) /\
  (forall j w, nth_error (ws s) j = Some w -> turn w = false -> sent w = []) /\
  (forall j w, nth_error (ws s) j = Some w -> dropped w = true -> turn w = true).

Lemma nth_upd_same {A} (l : list A) i x : i < length l -> nth_error (upd l i x) i = Some x.
Proof. revert i; induction l as [|a l IH]; intros [|i] H; cbn in *; try lia; auto. apply IH; lia. Qed.

Lemma nth_upd_at {A} (l : list A) i a x : nth_error l i = Some a -> nth_error (upd l i x) i = Some x.
Proof. intros H. apply nth_upd_same, nth_error_Some. congruence. Qed.

Lemma nth_upd_other {A} (l : list A) i j x : i <> j -> nth_error (upd l i x) j = nth_error l j.
Proof. revert i j; induction l as [|a l IH]; intros [|i] [|j] H; cbn; auto; try congruence. Qed.

Lemma upd_length {A} (l : list A) i x : length (upd l i x) = length l.
Proof. revert i; induction l as [|a l IH]; intros [|i]; cbn; auto. Qed.

Lemma nth_upd_cases {A} (l : list A) i j x y : nth_error (upd l i x) j = Some y ->
  (j = i /\ y = x /\ i < length l) \/ (j <> i /\ nth_error l j = Some y).
Proof.
  intros H. destruct (Nat.eq_dec j i) as [->|Hne].
  - left. assert (Hl : i < length l) by (rewrite <- (upd_length l i x); apply nth_error_Some; congruence).
    rewrite nth_upd_same in H by exact Hl. intuition congruence.
  - right. rewrite nth_upd_other in H by congruence. auto.
Qed.

Lemma nth_snoc_cases {A} (l : list A) x j y : nth_error (l ++ [x]) j = Some y ->
  nth_error l j = Some y \/ (j = length l /\ y = x).
Proof.
  intros H. destruct (Nat.lt_ge_cases j (length l)) as [Hl|Hl].
  - left. now rewrite nth_error_app1 in H.
  - right. rewrite nth_error_app2 in H by exact Hl.
    destruct (j - length l) as [|[|m]] eqn:E; cbn in H; inversion H. split; [lia|reflexivity].
Qed.

Lemma concat_all_nil (l : list wr) : (forall j wj, nth_error l j = Some wj -> sent wj = []) ->
  concat (map sent l) = [].
Proof.
  intros H. apply concat_nil_Forall. rewrite Forall_map. apply Forall_forall. intros x Hx.
  apply In_nth_error in Hx as [m Hm]. exact (H m x Hm).
Qed.

Lemma concat_upd_sent (l : list wr) i w w' d :
  nth_error l i = Some w -> sent w' = sent w ++ d ->
  (forall j wj, i < j -> nth_error l j = Some wj -> sent wj = []) ->
  concat (map sent (upd l i w')) = concat (map sent l) ++ d.
Proof.
  revert i. induction l as [|a l IH]; intros [|i] Hi Hs Hlater; cbn in *; try discriminate.
  - inversion Hi; subst a. rewrite Hs.
    assert (Htail : concat (map sent l) = []).
    { apply concat_all_nil. intros m x Hm. apply (Hlater (S m)); [lia|exact Hm]. }
    now rewrite Htail, !app_nil_r.
  - rewrite (IH i); auto; [now rewrite app_assoc|].
    intros j wj Hj Hn. apply (Hlater (S j)); [lia|exact Hn].
Qed.

Lemma concat_upd_same_sent (l : list wr) i w w' :
  nth_error l i = Some w -> sent w' = sent w -> concat (map sent (upd l i w')) = concat (map sent l).
Proof.
  revert i. induction l as [|a l IH]; intros [|i] Hi Hs; cbn in *; try discriminate.
  - inversion Hi; subst a. now rewrite Hs.
  - now rewrite (IH i).
Qed.

Lemma can_go_preds (s : st) i w : Inv s -> nth_error (ws s) i = Some w -> can_go (ws s) i w = true ->
  forall k wk, k < i -> nth_error (ws s) k = Some wk -> dropped wk = true.
Proof.
  intros (_ & Hturn & _ & Hdt) Hi Hgo k wk Hk Hnk. unfold can_go in Hgo. apply orb_true_iff in Hgo as [Ht|Hp].
  - exact (Hturn i w Hi Ht k wk Hk Hnk).
  - destruct i as [|j]; [lia|]. cbn in Hp. destruct (nth_error (ws s) j) as [wj|] eqn:Ej; [|discriminate].
    destruct (Nat.eq_dec k j) as [->|Hne]; [congruence|].
    assert (Hkj : k < j) by lia.
    exact (Hturn j wj Ej (Hdt j wj Ej Hp) k wk Hkj Hnk).
Qed.

Lemma later_empty (s : st) i w : Inv s -> nth_error (ws s) i = Some w -> dropped w = false ->
  forall j wj, i < j -> nth_error (ws s) j = Some wj -> sent wj = [].
Proof.
  intros (_ & Hturn & Hsent & _) Hi Hd j wj Hj Hnj. apply (Hsent j wj Hnj).
  destruct (turn wj) eqn:Et; auto. specialize (Hturn j wj Hnj Et i w Hj Hi). congruence.
Qed.

Lemma new_inv s : Inv s -> Inv {| ws := ws s ++ [{| turn := false; dropped := false; sent := [] |}]; stream := stream s |}.
Proof.
  intros (Hstr & Hturn & Hsent & Hdt). unfold Inv; cbn. repeat split.
  - rewrite map_app, concat_app. cbn. now rewrite !app_nil_r.
  - intros j w Hj Ht k wk Hk Hnk. apply nth_snoc_cases in Hj as [Hj|(_ & ->)]; [|discriminate].
    assert (Hjl : j < length (ws s)) by (apply nth_error_Some; congruence).
    rewrite nth_error_app1 in Hnk by lia. exact (Hturn j w Hj Ht k wk Hk Hnk).
  - intros j w Hj Ht. apply nth_snoc_cases in Hj as [Hj|(_ & ->)]; [exact (Hsent _ _ Hj Ht)|reflexivity].
  - intros j w Hj Hd. apply nth_snoc_cases in Hj as [Hj|(_ & ->)]; [exact (Hdt _ _ Hj Hd)|discriminate].
Qed.

(* the step of writer i, for Write, Flush (d = []) and DropW alike: whether w' is dropped does not matter *)
Lemma upd_inv s i w w' d strm : Inv s -> nth_error (ws s) i = Some w -> dropped w = false ->
  can_go (ws s) i w = true -> turn w' = true -> sent w' = sent w ++ d -> strm = stream s ++ d ->
  Inv {| ws := upd (ws s) i w'; stream := strm |}.
Proof.
  intros HI Ei Ed Eg Ht' Hs' ->. pose proof HI as (Hstr & Hturn & Hsent & Hdt). unfold Inv; cbn. repeat split.
  - rewrite Hstr. symmetry. exact (concat_upd_sent _ i w w' d Ei Hs' (later_empty s i w HI Ei Ed)).
  - intros j wj Hj Ht k wk Hk Hnk.
    apply nth_upd_cases in Hj as [(-> & -> & _)|(Hne & Hj)]; apply nth_upd_cases in Hnk as [(-> & -> & _)|(Hnek & Hnk)]; try lia.
    + exact (can_go_preds s i w HI Ei Eg k wk Hk Hnk).
    + (* a later writer with the turn would have i dropped *)
      specialize (Hturn j wj Hj Ht i w Hk Ei). congruence.
    + exact (Hturn j wj Hj Ht k wk Hk Hnk).
  - intros j wj Hj Ht. apply nth_upd_cases in Hj as [(-> & -> & _)|(_ & Hj)]; [congruence|exact (Hsent _ _ Hj Ht)].
  - intros j wj Hj Hd. apply nth_upd_cases in Hj as [(-> & -> & _)|(_ & Hj)]; [exact Ht'|exact (Hdt _ _ Hj Hd)].
Qed.

Lemma step_inv s l s' : Inv s -> step true s l = Some s' -> Inv s'.
Proof.
  intros HI Hstep. destruct l as [|i d|i|i]; cbn in Hstep.
  1: injection Hstep as <-; now apply new_inv.
  all: apply guarded_some in Hstep as (w & Ei & Ed & Eg & ->).
  - now apply (upd_inv s i w _ d).
  - apply (upd_inv s i w _ []); cbn; rewrite ?app_nil_r; auto.
  - apply (upd_inv s i w _ []); cbn; rewrite ?app_nil_r; auto using orb_true_r.
Qed.

Lemma init_inv : Inv init.
Proof. unfold Inv, init; cbn. repeat split; intros [|j] ? H; cbn in H; discriminate. Qed.

Theorem run_inv ls : forall s s', Inv s -> run true s ls = Some s' -> Inv s'.
Proof.
  induction ls as [|l ls IH]; cbn; intros s s' HI H; [now inversion H; subst|].
  destruct (step true s l) as [s1|] eqn:E; [|discriminate]. eapply IH; [eapply step_inv; eauto|exact H].
Qed.

(* C01 core: on every reachable state the byte stream is the in-order concatenation of per-writer blocks *)
Theorem ordered_not_interleaved ls s : run true init ls = Some s -> stream s = concat (map sent (ws s)).
Proof. intros H. now destruct (run_inv ls init s init_inv H). Qed.

End SeqW.

(* the tree as found: a writer dropped without having waited releases its successor early *)
Example unfixed_refuted :
  exists ls s, run nat false (init nat) ls = Some s /\ stream nat s <> concat (map (sent nat) (ws nat s)).
Proof.
  exists [New nat; New nat; New nat; DropW nat 1; Write nat 2 [3]; Write nat 0 [1]; DropW nat 0; DropW nat 2].
  eexists. split; [vm_compute; reflexivity|]. vm_compute. discriminate.
Qed.
