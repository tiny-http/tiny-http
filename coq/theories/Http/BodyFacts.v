(* Http/BodyFacts.v — the body readers deliver exactly the designated body (C03) and leave the
   connection at the first byte after it (C09): the generic argument (one-read specification =>
   arbitrary sequences of reads, then drop), and its instances for the length-limited reader,
   the pre-read (buffered) reader and the upgrade reader. The chunked reader is in
   ChunkedReader.v (its size line in ChunkedFacts.v); sequences of `take` and `do_reads` are in C03Facts.v. *)
From TH Require Import Base.Bytes Base.BytesFacts Http.Request Http.Body.
From Coq Require Import Lia.

(* The application reads with the buffer sizes ns in turn. How reading ended: None = ns was used up
   (the application stopped reading), Some x = the first result that was not data. *)
Fixpoint reads (c : cfg) (ns : list nat) (r : breader) (st : stream) (al : allocs)
  : list bytes * option rres * breader * stream * allocs :=
  match ns with
  | [] => ([], None, r, st, al)
  | n :: ns' =>
      match body_read c n r st al with
      | (RData d, r1, st1, al1) =>
          let '(ps, e, r2, st2, al2) := reads c ns' r1 st1 al1 in (d :: ps, e, r2, st2, al2)
      | (x, r1, st1, al1) => ([], Some x, r1, st1, al1)
      end
  end.

Definition all_pos (ns : list nat) : Prop := Forall (fun n => (0 < n)%nat) ns.
Definition stable (r : breader) (st : stream) : Prop :=
  forall n al, body_read fixed n r st al = (REof, r, st, al).
Definition pieces_fit (ns : list nat) (ps : list bytes) : Prop :=
  Forall2 (fun n p => p <> [] /\ (List.length p <= n)%nat) (firstn (List.length ps) ns) ps.

Lemma len_skipn k x : (len x - len (firstn k x))%N = len (skipn k x).
Proof. unfold len. rewrite firstn_length, skipn_length. lia. Qed.

Lemma first_piece k n (x : bytes) : (0 < k <= n)%nat -> x <> [] ->
  firstn k x <> [] /\ (List.length (firstn k x) <= n)%nat /\ x = firstn k x ++ skipn k x.
Proof.
  intros Hk Hx. rewrite firstn_skipn, firstn_length. repeat split; [|lia].
  destruct x; [congruence|]. destruct k; [lia|discriminate].
Qed.

Lemma stream_eq st x e : sbytes st = x -> seof st = e -> st = mkS x e.
Proof. destruct st. cbn. congruence. Qed.
Lemma src_read_data n st : (0 < n)%nat -> sbytes st <> [] ->
  src_read n st = (RData (firstn n (sbytes st)), mkS (skipn n (sbytes st)) (seof st)).
Proof. intros Hn Hb. destruct n; [lia|]. unfold src_read. destruct (sbytes st); [congruence|reflexivity]. Qed.
Lemma src_read_nil n st : (0 < n)%nat -> sbytes st = [] ->
  src_read n st = (if seof st then REof else RBlock, st).
Proof. intros Hn Hb. destruct n; [lia|]. unfold src_read. rewrite Hb. destruct (seof st); reflexivity. Qed.
Lemma src_read_app k x y e : (0 < k <= List.length x)%nat ->
  src_read k (mkS (x ++ y) e) = (RData (firstn k x), mkS (skipn k x ++ y) e).
Proof.
  intros Hk. rewrite src_read_data; cbn [sbytes seof]; [|lia|destruct x; [cbn in Hk; lia|discriminate]].
  rewrite firstn_app, skipn_app. replace (k - List.length x)%nat with O by lia.
  cbn [firstn skipn]. now rewrite app_nil_r.
Qed.

Lemma pieces_bytes_cons d acc : pieces_bytes (d :: acc) = pieces_bytes acc ++ d.
Proof. unfold pieces_bytes. rewrite frev_cons, concat_app. cbn [List.concat]. now rewrite app_nil_r. Qed.

Section Generic.
(* `tail`: what follows the body on the connection. `Inv rest r st`: the reader state r and the
   stream st are such that exactly `rest` of the designated body is still to be delivered. *)
Variable tail : bytes.
Variable Inv : bytes -> breader -> stream -> Prop.

Definition step_spec : Prop := forall n rest r st al, (0 < n)%nat -> Inv rest r st ->
  (exists d rest' r' st', body_read fixed n r st al = (RData d, r', st', al) /\
       d <> [] /\ (List.length d <= n)%nat /\ rest = d ++ rest' /\ Inv rest' r' st')
  \/ (rest = [] /\ exists r' st', body_read fixed n r st al = (REof, r', st', al) /\
       Inv [] r' st' /\ sbytes st' = tail /\ stable r' st').
Definition drop_spec : Prop := forall rest r st al, Inv rest r st ->
  sbytes (fst (body_drop fixed r st al)) = tail.

Hypothesis step : step_spec.

Theorem reads_spec : forall ns body r st al, all_pos ns -> Inv body r st ->
  exists ps e rest r' st',
    reads fixed ns r st al = (ps, e, r', st', al) /\
    body = List.concat ps ++ rest /\ Inv rest r' st' /\ pieces_fit ns ps /\
    ((e = None /\ List.length ps = List.length ns) \/
     (e = Some REof /\ rest = [] /\ sbytes st' = tail /\ stable r' st')).
Proof.
  induction ns as [|n ns IH]; intros body r st al Hpos HI.
  - exists [], None, body, r, st. cbn [reads List.concat app List.length]. repeat split; auto. constructor.
  - apply Forall_cons_iff in Hpos as [Hn Hpos']. cbn [reads].
    destruct (step n body r st al Hn HI) as [(d & rest' & r1 & st1 & E & Hd & Hl & Hb & HI1)|(Hb & r1 & st1 & E & HI1 & Ht & Hs)].
    + rewrite E. destruct (IH rest' r1 st1 al Hpos' HI1) as (ps & e & rest & r2 & st2 & E2 & Hb2 & HI2 & Hf & He).
      rewrite E2. exists (d :: ps), e, rest, r2, st2. repeat split; auto.
      * cbn [List.concat]. rewrite <- app_assoc, <- Hb2. exact Hb.
      * unfold pieces_fit. cbn [List.length firstn]. constructor; auto.
      * destruct He as [[-> Hlen]|He]; [left; split; [reflexivity|cbn [List.length]; now rewrite Hlen]|right; exact He].
    + rewrite E. exists [], (Some REof), [], r1, st1. cbn [List.concat app]. repeat split; auto. constructor.
Qed.

Lemma pieces_fit_length ns ps : pieces_fit ns ps -> (List.length ps <= List.length (List.concat ps))%nat.
Proof.
  unfold pieces_fit. revert ns. induction ps as [|p ps IH]; intros ns H; [cbn; lia|].
  cbn [List.length firstn] in H. destruct ns as [|n ns]; [inversion H|]. cbn [firstn] in H.
  inversion H as [|? ? ? ? [Hp _] H']; subst. cbn [List.concat List.length]. rewrite app_length.
  specialize (IH ns H'). apply length_pos in Hp. lia.
Qed.

(* C09: wherever the application stops reading, dropping the request leaves the connection at `tail` *)
Hypothesis drop : drop_spec.
Corollary reads_then_drop ns body r st al ps e r' st' al' : all_pos ns -> Inv body r st ->
  reads fixed ns r st al = (ps, e, r', st', al') ->
  sbytes (fst (body_drop fixed r' st' al')) = tail.
Proof.
  intros Hpos HI E. destruct (reads_spec ns body r st al Hpos HI) as (ps0 & e0 & rest & r0 & st0 & E0 & _ & HI' & _).
  rewrite E in E0. injection E0 as -> -> -> -> ->. exact (drop _ _ _ _ HI').
Qed.

Lemma body_read_any_pos c n r st al : (0 < n)%nat -> body_read_any c n r st al = body_read c n r st al.
Proof. destruct n; [lia|reflexivity]. Qed.

End Generic.

(* the length-limited reader, FusedReader(EqualReader): all of `rest` still to come, or fused after its end *)
Definition lim_inv (tail rest : bytes) (r : breader) (st : stream) : Prop :=
  (r = BLimited (len rest) /\ sbytes st = rest ++ tail) \/ (rest = [] /\ r = BEmpty /\ sbytes st = tail).

Lemma stable_empty st : stable BEmpty st.
Proof. intros n al. reflexivity. Qed.

Lemma lim_step tail : step_spec tail (lim_inv tail).
Proof.
  intros n rest r st al Hn [[-> Hs]|(-> & -> & Hs)].
  - cbn [body_read]. destruct (N.eqb_spec (len rest) 0) as [H0|H0].
    + right. apply len_0 in H0 as ->.
      split; [reflexivity|]. exists BEmpty, st. repeat split; auto using stable_empty. right; auto.
    + left. destruct st as [x e]. cbn [sbytes] in Hs. subst x.
      set (k := N.to_nat (N.min (N.of_nat n) (len rest))).
      assert (Hk : (0 < k <= List.length rest)%nat /\ (k <= n)%nat) by (unfold k, len in *; lia).
      rewrite src_read_app by lia. rewrite len_skipn.
      destruct (first_piece k n rest) as (Hd & Hl & Hb); [lia|intros ->; now apply H0|].
      exists (firstn k rest), (skipn k rest), (BLimited (len (skipn k rest))), (mkS (skipn k rest ++ tail) e).
      repeat split; auto. left. auto.
  - right. split; [reflexivity|]. exists BEmpty, st. cbn [body_read]. repeat split; auto using stable_empty. right; auto.
Qed.

(* EqualReader::drop consumes the next `rem` bytes, or all that is pending if that is less: with the
   whole rest of the body pending exactly the rest is consumed (skipn_len); when the client went
   away or has not sent it, everything is, and nothing is left to be misread (skipn_all2) *)
Lemma discard_skipn : forall fuel rem x e al, (N.min rem (len x) <= N.of_nat fuel)%N ->
  sbytes (fst (discard fixed fuel rem (mkS x e) al)) = skipn (N.to_nat rem) x.
Proof.
  induction fuel as [|f IH]; intros rem x e al Hf; cbn [discard].
  - destruct x; [now rewrite skipn_nil|]. replace rem with 0%N by (unfold len in Hf; cbn [List.length] in Hf; lia). reflexivity.
  - destruct (N.eqb_spec rem 0) as [->|H0]; [reflexivity|]. cbn [fix_d6 fixed sbytes].
    set (k := N.min (N.min rem 8192) (len x)).
    destruct x as [|b x].
    + rewrite src_read_nil by (cbn [sbytes]; auto; destruct (N.eqb_spec k 0); lia). rewrite skipn_nil. cbn [seof]. destruct e; reflexivity.
    + assert (Hk : (0 < k <= rem /\ k <= len (b :: x))%N) by (unfold k, len; cbn [List.length]; lia).
      destruct (N.eqb_spec k 0) as [Hk0|_]; [lia|].
      rewrite (src_read_data (N.to_nat k)) by (cbn [sbytes]; try discriminate; lia). cbn [sbytes seof].
      set (d := firstn (N.to_nat k) (b :: x)).
      assert (Hd : len d = k) by (unfold d, len in *; rewrite firstn_length; lia).
      rewrite IH, <- (skipn_len_app d), Hd.
      * unfold d. rewrite firstn_skipn. f_equal. lia.
      * rewrite <- len_skipn. fold d. lia.
Qed.

Lemma lim_drop tail : drop_spec tail (lim_inv tail).
Proof.
  intros rest r st al [[-> Hs]|(-> & -> & Hs)]; cbn [body_drop]; [|exact Hs].
  destruct st as [x e]. cbn [sbytes] in *. subst x. rewrite discard_skipn; [apply skipn_len|unfold len; lia].
Qed.

Lemma lim_drop_short x e n al : (len x < n)%N -> sbytes (fst (body_drop fixed (BLimited n) (mkS x e) al)) = [].
Proof. intros H. cbn [body_drop sbytes]. rewrite discard_skipn; [apply skipn_all2|]; unfold len in *; lia. Qed.

Lemma lim_inv_init tail body e : lim_inv tail body (BLimited (len body)) (mkS (body ++ tail) e).
Proof. left. split; reflexivity. Qed.
Lemma lim_inv_state tail rest r st e : lim_inv tail rest r st -> seof st = e -> st = mkS (rest ++ tail) e.
Proof. intros [[_ H]|(-> & _ & H)]; now apply stream_eq. Qed.

(* the pre-read small body (Cursor): the connection st0 is not touched *)
Definition buf_inv (st0 : stream) (rest : bytes) (r : breader) (st : stream) : Prop :=
  r = BBuffered rest /\ st = st0.

Lemma buf_step st0 : step_spec (sbytes st0) (buf_inv st0).
Proof.
  intros n rest r st al Hn [-> ->]. cbn [body_read]. destruct rest as [|b rest].
  - right. split; [reflexivity|]. exists (BBuffered []), st0. repeat split.
  - left. destruct (first_piece n n (b :: rest)) as (Hd & Hl & Hb); [auto|discriminate|].
    exists (firstn n (b :: rest)), (skipn n (b :: rest)), (BBuffered (skipn n (b :: rest))), st0. repeat split; auto.
Qed.
Lemma buf_drop st0 : drop_spec (sbytes st0) (buf_inv st0).
Proof. intros rest r st al [-> ->]. reflexivity. Qed.
Lemma buf_inv_init st0 body : buf_inv st0 body (BBuffered body) st0.
Proof. split; reflexivity. Qed.

(* the upgrade reader is the connection itself: no end of body, a read may block *)
Theorem upgrade_reads x e ns al ps en r' st' al' : all_pos ns ->
  reads fixed ns BUpgrade (mkS x e) al = (ps, en, r', st', al') ->
  r' = BUpgrade /\ al' = al /\ x = List.concat ps ++ sbytes st' /\ seof st' = e /\ pieces_fit ns ps /\
  ((en = None /\ List.length ps = List.length ns) \/
   (sbytes st' = [] /\ List.concat ps = x /\ en = Some (if e then REof else RBlock))).
Proof.
  revert x ps en r' st' al'. induction ns as [|n ns IH]; intros x ps en r' st' al' Hpos; cbn [reads body_read].
  - intros [= <- <- <- <- <-]. cbn. repeat split; auto. constructor.
  - apply Forall_cons_iff in Hpos as [Hn Hpos']. destruct x as [|b x].
    + rewrite (src_read_nil n (mkS [] e) Hn eq_refl). cbn [seof].
      destruct e; intros [= <- <- <- <- <-]; cbn; repeat split; auto; constructor.
    + rewrite src_read_data by (cbn [sbytes]; auto; discriminate). cbn [sbytes seof].
      destruct (reads fixed ns BUpgrade (mkS (skipn n (b :: x)) e) al) as [[[[ps0 en0] r0] st0] al0] eqn:E.
      destruct (IH _ _ _ _ _ _ Hpos' E) as (-> & -> & Hx & He & Hf & Hend).
      destruct (first_piece n n (b :: x)) as (Hd & Hl & Hb); [auto|discriminate|].
      intros [= <- <- <- <- <-]. cbn [List.concat]. rewrite <- app_assoc, <- Hx, <- Hb. repeat split; auto.
      * unfold pieces_fit. cbn [List.length firstn]. constructor; auto.
      * destruct Hend as [[-> Hlen]|(Hs & Hc & ->)]; [left; split; [reflexivity|cbn [List.length]; now rewrite Hlen]|right].
        rewrite Hc, <- Hb. auto.
Qed.
