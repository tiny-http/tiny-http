(* Props/C05.v — Chunked/identity selection is a fixed function of version, status, TE and length.
   A proof of more than a few lines is a lemma of TEFacts, C05Facts or ResponseFacts. *)
From TH Require Import Base.Bytes Http.Response Http.C05Spec Http.TEFacts Http.ResponseFacts Http.C05Facts.
From Coq Require Import ZArith.

(* the decision made by the code is the reference decision, for every status, version, length,
   threshold and TE header whose q values lie in the modelled sub-domain *)
Theorem c05_choice_is_reference :
  forall status rh ver dlen thr entries,
    te_entries rh = Some entries ->
    choose_te status rh ver dlen thr = Some (ref_choice status entries ver dlen thr).
Proof. exact choice_is_reference. Qed.
Print Assumptions c05_choice_is_reference.

(* the sort-then-scan of the code is "first entry of maximal q among the supported ones with q>0" *)
Theorem c05_wish_is_first_argmax :
  forall l, first_supported (sort_desc l) = coding_of (first_argmax (filter eligible l)).
Proof. exact wish_is_reference. Qed.
Print Assumptions c05_wish_is_first_argmax.

Theorem c05_first_argmax_is_max :
  forall l m, first_argmax l = Some m -> In m l /\ forall e, In e l -> (snd e <= snd m)%Z.
Proof. intros l m H. pose proof (first_argmax_spec l) as A. now rewrite H in A. Qed.
Print Assumptions c05_first_argmax_is_max.

Theorem c05_default_threshold : forall r, threshold r = None -> chunked_threshold r = 32768%N.
Proof. intros r H. unfold chunked_threshold. now rewrite H. Qed.
Print Assumptions c05_default_threshold.

(* what is sent starts with the head carrying exactly these headers *)
Theorem c05_head_carries_framing :
  forall te0 date r ver nb up, exists body,
    raw_print_with te0 date r ver nb up = render_head ver (status r) (framing_of date r up te0) ++ body.
Proof. intros. eexists. reflexivity. Qed.
Print Assumptions c05_head_carries_framing.

Theorem c05_identity_has_cl :
  forall date r, clean r ->
    let hs := framing_of date r None Identity in
    filter is_cl hs = [mkH (s "Content-Length")
                           (print_dec match data_length r with Some l => l | None => len (rbody r) end)]
    /\ filter is_te hs = [].
Proof.
  intros date r Hc. unfold framing_of.
  destruct (data_length r); exact (framing_headers date r None (Some Identity) (Some _) Hc).
Qed.
Print Assumptions c05_identity_has_cl.

Theorem c05_chunked_has_te_no_cl :
  forall date r, clean r ->
    let hs := framing_of date r None Chunked in
    filter is_te hs = [mkH (s "Transfer-Encoding") (s "chunked")] /\ filter is_cl hs = [].
Proof. intros date r Hc. exact (framing_headers date r None (Some Chunked) _ Hc). Qed.
Print Assumptions c05_chunked_has_te_no_cl.

Theorem c05_upgrade_has_neither :
  forall date r p te0, clean r ->
    let hs := framing_of date r (Some p) te0 in
    filter is_cl hs = [] /\ filter is_te hs = [].
Proof.
  intros date r p te0 Hc. unfold framing_of.
  destruct (data_length r); exact (framing_headers date r (Some p) None _ Hc).
Qed.
Print Assumptions c05_upgrade_has_neither.

(* every response the application can build is `clean` *)
Theorem c05_built_is_clean :
  forall st hs b dl ops, clean (build (new_response st hs b dl) ops).
Proof. exact built_clean. Qed.
Print Assumptions c05_built_is_clean.

(* non-vacuity: a TE header with three entries where the tie goes to the earlier one *)
Example c05_example :
  choose_te 200 [mkH (s "te") (s "gzip;q=1, identity;q=0.5, chunked;q=0.5")] (1, 1)%N (Some 5%N) 0%N
  = Some Identity
  /\ te_entries [mkH (s "te") (s "gzip;q=1, identity;q=0.5, chunked;q=0.5")]
     = Some [(s "gzip", 1000%Z); (s "identity", 500%Z); (s "chunked", 500%Z)].
Proof. vm_compute. split; reflexivity. Qed.
