(* Http/ReaderOpChunkLoopFacts.v — the application's read loop over chunked_transfer::Decoder on
   the operational BufReader (C13). One Decoder::read may be short, so only loops are compared.
   dec_fn is the loop as a function of the logical stream. It has one INDETERMINATE case, DFTorn:
   a chunk whose payload is complete in the stream but is not followed by CR LF (or the stream
   pauses/ends right there). In that case Decoder::read returns Err after having consumed the last
   piece of the payload, which the application never sees, and how long that last piece is depends
   on the segmentation (see c13_chunked_torn_counterexample in Props/C13.v). In every other case
   (dec_fn = DFOk F) the loop over any segmentation with any buffer-size policy yields F. *)
From TH Require Import Base.Bytes Base.BytesFacts Http.Body Http.BodyFacts Http.StreamFacts
                       Http.ReaderOp Http.ReaderOpFacts Http.ReaderOpChunkFacts.
From Coq Require Import Lia.
Open Scope char_scope.

(* as ReaderOpLimitedFacts.ltres; dt_rem is the decoder's state (the count left in the chunk, if inside one) *)
Record dtres := mkDT { dt_got : bytes; dt_end : read_end; dt_rem : option N; dt_rest : bytes }.
Inductive dfres := DFOk (F : dtres) | DFTorn | DFFuel.

Definition dprepend (d : bytes) (R : dfres) : dfres :=
  match R with
  | DFOk F => DFOk (mkDT (d ++ dt_got F) (dt_end F) (dt_rem F) (dt_rest F))
  | x => x
  end.

Fixpoint dec_fn (fuel : nat) (m : N) (rem : option N) (x : bytes) (e : bool) : dfres :=
  if (m =? 0)%N then DFOk (mkDT [] EndCount rem x) else
  match fuel with
  | O => DFFuel
  | S f =>
      match rem with
      | None =>
          match read_chunk_size (mkS x e) with
          | (DOk sz, st1) =>
              if (sz =? 0)%N then
                match read_crlf st1 with
                | (DOk _, st2) => DFOk (mkDT [] EndEof None (sbytes st2))
                | (DErr, st2) => DFOk (mkDT [] EndErr None (sbytes st2))
                | (DBlock, st2) => DFOk (mkDT [] EndBlock None (sbytes st2))
                end
              else dec_fn f m (Some sz) (sbytes st1) e
          | (DErr, st1) => DFOk (mkDT [] EndErr None (sbytes st1))
          | (DBlock, st1) => DFOk (mkDT [] EndBlock None (sbytes st1))
          end
      | Some r =>
          let t := N.min m r in
          if (len x <? t)%N then          (* the stream ends / pauses inside the chunk *)
            DFOk (mkDT x (if e then EndEof else EndBlock) (Some (r - len x)%N) [])
          else if (t <? r)%N then         (* the count is reached inside the chunk *)
            DFOk (mkDT (firstn (N.to_nat t) x) EndCount (Some (r - t)%N) (skipn (N.to_nat t) x))
          else                            (* the chunk is completed *)
            match read_crlf (mkS (skipn (N.to_nat r) x) e) with
            | (DOk _, st2) => dprepend (firstn (N.to_nat r) x) (dec_fn f (m - r)%N None (sbytes st2) e)
            | _ => DFTorn
            end
      end
  end.

Lemma dprepend_app a b R : dprepend (a ++ b) R = dprepend a (dprepend b R).
Proof. destruct R as [F| |]; cbn [dprepend dt_got dt_end dt_rem dt_rest]; [|reflexivity|reflexivity]. now rewrite app_assoc. Qed.

Lemma dprepend_ok d R F : dprepend d R = DFOk F ->
  exists F', R = DFOk F' /\ F = mkDT (d ++ dt_got F') (dt_end F') (dt_rem F') (dt_rest F').
Proof. destruct R as [F'| |]; cbn [dprepend]; intros H; inversion H. eauto. Qed.

Lemma dec_fn_0 fuel rem x e : dec_fn fuel 0 rem x e = DFOk (mkDT [] EndCount rem x).
Proof. destruct fuel; reflexivity. Qed.

Lemma dec_fn_Some_nil f m r e : m <> 0%N -> r <> 0%N ->
  dec_fn (S f) m (Some r) [] e = DFOk (mkDT [] (if e then EndEof else EndBlock) (Some r) []).
Proof.
  intros Hm Hr. cbn [dec_fn]. destruct (N.eqb_spec m 0) as [|_]; [contradiction|].
  change (len []) with 0%N. rewrite N.sub_0_r. destruct (N.ltb_spec 0 (N.min m r)); [reflexivity|lia].
Qed.

(* a piece d taken off the front that does not complete the chunk counts against both limits and
   is otherwise passed through *)
Lemma dec_fn_app f m r (d x : bytes) e : d <> [] -> r <> 0%N ->
  dec_fn (S f) (len d + m) (Some (len d + r)%N) (d ++ x) e = dprepend d (dec_fn (S f) m (Some r) x e).
Proof.
  intros Hd Hr. apply length_pos in Hd. cbn [dec_fn].
  destruct (N.eqb_spec (len d + m) 0) as [H0|_]; [unfold len in H0; lia|].
  rewrite N.add_min_distr_l, len_app, !N_ltb_add_l, !N_sub_add_l, !firstn_len_app, !skipn_len_app.
  destruct (N.eqb_spec m 0) as [->|Hm].
  - (* the count is reached by this very piece *)
    rewrite N.min_0_l, N.sub_0_r. destruct (N.ltb_spec (len x) 0); [lia|].
    destruct (N.ltb_spec 0 r); [reflexivity|lia].
  - destruct (len x <? N.min m r)%N; [reflexivity|]. destruct (N.min m r <? r)%N; [reflexivity|].
    destruct (read_crlf (mkS (skipn (N.to_nat r) x) e)) as [[u| |] st2]; [apply dprepend_app|reflexivity|reflexivity].
Qed.

Lemma dec_fn_step_done f m r (d x : bytes) e : r <> 0%N -> len d = r -> (r <= m)%N ->
  dec_fn (S f) m (Some r) (d ++ x) e =
  match read_crlf (mkS x e) with
  | (DOk _, st2) => dprepend d (dec_fn f (m - r)%N None (sbytes st2) e)
  | _ => DFTorn
  end.
Proof.
  intros Hr <- Hm. cbn [dec_fn]. destruct (N.eqb_spec m 0) as [|_]; [lia|].
  rewrite N.min_r, len_app by assumption.
  destruct (N.ltb_spec (len d + len x) (len d)); [lia|]. rewrite N.ltb_irrefl.
  rewrite firstn_len, skipn_len. reflexivity.
Qed.

Definition end_of (r : rres) : read_end :=
  match r with RData _ => EndCount | REof => EndEof | RErr => EndErr | RBlock => EndBlock end.

(* dec_fn says DFOk F on the stream x; a read returns r, leaves the count rem' and the stream x':
   either the loop ends here with F, or the piece d is the beginning of F and dec_fn on x' gives
   the rest of it *)
Definition step_post (x : bytes) (e : bool) (m : N) (F : dtres) (r : rres) (rem' : option N)
                     (x' : bytes) : Prop :=
  match r with
  | RData d =>
      d <> [] /\ List.length x' < List.length x /\ rem' <> Some 0%N /\
      exists f' F', dec_fn f' (m - len d)%N rem' x' e = DFOk F' /\
                    F = mkDT (d ++ dt_got F') (dt_end F') (dt_rem F') (dt_rest F')
  | _ => F = mkDT [] (end_of r) rem' x'
  end.

(* the three outcomes of a payload read of the piece d, whoever performs it *)
Lemma step_post_in f m r (d x x' : bytes) e F : x = d ++ x' -> d <> [] -> (len d <= m)%N -> (len d < r)%N ->
  dec_fn (S f) m (Some r) x e = DFOk F -> step_post x e m F (RData d) (Some (r - len d)%N) x'.
Proof.
  intros -> Hd Hm Hr H. replace m with (len d + (m - len d))%N in H by lia.
  replace r with (len d + (r - len d))%N in H by lia. rewrite dec_fn_app in H by (assumption || lia).
  apply dprepend_ok in H as (F' & H1 & H2). unfold step_post. split; [exact Hd|].
  split; [rewrite app_length; apply length_pos in Hd; lia|]. split; [intros [= Heq]; lia|].
  exists (S f), F'. auto.
Qed.

Lemma step_post_done f m r (d x x' : bytes) e F : x = d ++ x' -> d <> [] -> len d = r -> (r <= m)%N ->
  dec_fn (S f) m (Some r) x e = DFOk F ->
  exists u st2, read_crlf (mkS x' e) = (DOk u, st2) /\ step_post x e m F (RData d) None (sbytes st2).
Proof.
  intros -> Hd Hl Hm H. apply length_pos in Hd as Hpos.
  rewrite dec_fn_step_done in H by (assumption || (unfold len in Hl; lia)).
  pose proof (adv_length _ _ (read_crlf_adv (mkS x' e))) as L.
  destruct (read_crlf (mkS x' e)) as [[u| |] st2]; [|discriminate|discriminate]. exists u, st2.
  split; [reflexivity|]. apply dprepend_ok in H as (F' & H1 & H2). unfold step_post. split; [exact Hd|].
  cbn [snd sbytes] in L. split; [rewrite app_length; lia|]. split; [discriminate|].
  exists f, F'. rewrite Hl. auto.
Qed.

Lemma step_post_nil f m r e F : m <> 0%N -> r <> 0%N ->
  dec_fn (S f) m (Some r) [] e = DFOk F -> step_post [] e m F (if e then REof else RBlock) (Some r) [].
Proof. intros Hm Hr H. rewrite dec_fn_Some_nil in H by assumption. injection H as <-. now destruct e. Qed.

Definition dec_go (n : nat) (rem : option N) (r : N) (br0 : bufreader) : rres * option N * bufreader :=
  if (N.of_nat n <? r)%N then
    match br_read n br0 with
    | (OData d, br1) => (RData d, Some (r - len d)%N, br1)
    | (OEof, br1) => (REof, Some r, br1)
    | (OBlock, br1) => (RBlock, Some r, br1)
    end
  else
    match br_read (N.to_nat r) br0 with
    | (OData d, br1) =>
        if (len d =? r)%N then
          match read_crlf_op br1 with
          | (DOk _, br2) => (RData d, None, br2)
          | (DErr, br2) => (RErr, rem, br2)
          | (DBlock, br2) => (RBlock, rem, br2)
          end
        else (RData d, Some (r - len d)%N, br1)
    | (OEof, br1) => (REof, Some r, br1)
    | (OBlock, br1) => (RBlock, Some r, br1)
    end.

Lemma dec_read_op_eq n rem br : dec_read_op n rem br =
  match rem with
  | Some r => dec_go n rem r br
  | None =>
      match read_chunk_size_op br with
      | (DOk sz, br1) =>
          if (sz =? 0)%N then
            match read_crlf_op br1 with
            | (DOk _, br2) => (REof, None, br2)
            | (DErr, br2) => (RErr, None, br2)
            | (DBlock, br2) => (RBlock, None, br2)
            end
          else dec_go n rem sz br1
      | (DErr, br1) => (RErr, None, br1)
      | (DBlock, br1) => (RBlock, None, br1)
      end
  end.
Proof. reflexivity. Qed.

Lemma dec_go_step n rem0 r br x e f m F : holds br x e -> 0 < n -> (N.of_nat n <= m)%N -> r <> 0%N ->
  dec_fn (S f) m (Some r) x e = DFOk F ->
  let '(res, rem', br') := dec_go n rem0 r br in
  exists x', holds br' x' e /\ step_post x e m F res rem' x'.
Proof.
  intros Hbr Hn Hnm Hr H. assert (Hm : m <> 0%N) by lia. unfold dec_go.
  destruct (N.ltb_spec (N.of_nat n) r).
  - destruct (br_read_cases n br x e Hbr Hn) as (br1 & [(-> & -> & Hbr1)|(d & x' & Hx & Hd & Hl & -> & Hbr1)]).
    + apply (step_post_nil f m r _ F Hm Hr) in H. destruct e; exists []; auto.
    + exists x'. split; [exact Hbr1|]. apply (step_post_in f); auto; unfold len; lia.
  - destruct (br_read_cases (N.to_nat r) br x e Hbr ltac:(lia))
      as (br1 & [(-> & -> & Hbr1)|(d & x' & Hx & Hd & Hl & -> & Hbr1)]).
    + apply (step_post_nil f m r _ F Hm Hr) in H. destruct e; exists []; auto.
    + destruct (N.eqb_spec (len d) r) as [Hdr|Hdr].
      * destruct (step_post_done f m r d x x' e F Hx Hd Hdr ltac:(lia) H) as (u & st2 & Hc & Hp).
        destruct (read_crlf_fn br1 x' e Hbr1) as (br2 & -> & Hbr2). unfold on_stream in Hbr2 |- *.
        rewrite Hc in Hbr2 |- *. exists (sbytes st2). auto.
      * exists x'. split; [exact Hbr1|]. apply (step_post_in f); auto; unfold len in *; lia.
Qed.

Lemma dec_read_op_step n rem br x e ff m F : holds br x e -> 0 < n -> (N.of_nat n <= m)%N ->
  rem <> Some 0%N -> dec_fn ff m rem x e = DFOk F ->
  let '(res, rem', br') := dec_read_op n rem br in
  exists x', holds br' x' e /\ step_post x e m F res rem' x'.
Proof.
  intros Hbr Hn Hnm Hrem H. assert (Hm : (m =? 0)%N = false) by (apply N.eqb_neq; lia).
  rewrite dec_read_op_eq. destruct ff as [|f]; [cbn [dec_fn] in H; rewrite Hm in H; discriminate|].
  destruct rem as [r|].
  - apply (dec_go_step n (Some r) r br x e f m F); auto. congruence.
  - cbn [dec_fn] in H. rewrite Hm in H.
    destruct (read_chunk_size_fn br x e Hbr) as (br1 & -> & Hbr1). unfold on_stream in Hbr1 |- *.
    pose proof (read_chunk_size_eof x e) as Hst.
    pose proof (read_chunk_size_shorter (mkS x e)) as S.
    destruct (read_chunk_size (mkS x e)) as [[sz0| |] st1]; cbn [fst snd] in *.
    + specialize (S _ _ eq_refl). cbn [sbytes] in S.
      destruct (N.eqb_spec sz0 0) as [->|Hsz].
      * destruct (read_crlf_fn br1 _ e Hbr1) as (br2 & -> & Hbr2). unfold on_stream in Hbr2 |- *.
        rewrite <- Hst in Hbr2 |- *.
        destruct (read_crlf st1) as [[u| |] st2]; cbn [fst snd] in *; injection H as <-;
          exists (sbytes st2); (split; [assumption|reflexivity]).
      * destruct f as [|f']; [cbn [dec_fn] in H; rewrite Hm in H; discriminate|].
        pose proof (dec_go_step n None sz0 br1 _ e f' m F Hbr1 Hn Hnm Hsz H) as Hp.
        destruct (dec_go n None sz0 br1) as [[r1 rem1] br2]. destruct Hp as (x' & Hbr2 & Hp).
        exists x'. split; [exact Hbr2|]. destruct r1 as [d| | |]; try exact Hp.
        (* Q2 bounds the rest against the stream behind the size line; S says that one is shorter than x *)
        destruct Hp as (Q1 & Q2 & Q3). split; [exact Q1|]. split; [lia|exact Q3].
    + injection H as <-. exists (sbytes st1). split; [assumption|reflexivity].
    + injection H as <-. exists (sbytes st1). split; [assumption|reflexivity].
Qed.

Theorem dec_take_op_fn : forall fo sz m rem br acc x e ff F,
  holds br x e -> (forall h, 0 < sz h) -> rem <> Some 0%N -> List.length x < fo ->
  dec_fn ff m rem x e = DFOk F ->
  exists acc' br', dec_take_op fo sz m rem br acc = Some (acc', dt_end F, dt_rem F, br') /\
                   pieces_bytes acc' = pieces_bytes acc ++ dt_got F /\
                   holds br' (dt_rest F) e.
Proof.
  induction fo as [|fo IH]; intros sz m rem br acc x e ff F Hbr Hsz Hrem Hf H; [lia|].
  cbn [dec_take_op]. destruct (N.eqb_spec m 0) as [->|Hm].
  - rewrite dec_fn_0 in H. injection H as <-. exists acc, br.
    cbn [dt_got dt_end dt_rem dt_rest]. rewrite app_nil_r. auto.
  - assert (Hw : 0 < N.to_nat (N.min m (N.of_nat (sz acc)))) by (specialize (Hsz acc); lia).
    pose proof (dec_read_op_step _ rem br x e ff m F Hbr Hw ltac:(lia) Hrem H) as Hp.
    destruct (dec_read_op (N.to_nat (N.min m (N.of_nat (sz acc)))) rem br) as [[r1 rem1] br1].
    destruct Hp as (x' & Hbr1 & Hp). unfold step_post in Hp. destruct r1 as [d| | |].
    1: { destruct Hp as (Q1 & Q2 & Q3 & f' & F' & Q4 & ->).
         destruct (IH sz (m - len d)%N rem1 br1 (d :: acc) x' e f' F' Hbr1 Hsz Q3 ltac:(lia) Q4)
           as (acc' & br2 & -> & R2 & Hbr2).
         exists acc', br2. cbn [dt_got dt_end dt_rem dt_rest].
         rewrite R2, pieces_bytes_cons, app_assoc. auto. }
    all: subst F; exists acc, br1; cbn [dt_got dt_end dt_rem dt_rest end_of]; rewrite app_nil_r; auto.
Qed.

Corollary dec_take_fn_spec sz m rem br x e ff F : holds br x e -> (forall h, 0 < sz h) ->
  rem <> Some 0%N -> dec_fn ff m rem x e = DFOk F ->
  exists acc' br', dec_take sz m rem br = Some (acc', dt_end F, dt_rem F, br') /\
                   pieces_bytes acc' = dt_got F /\ holds br' (dt_rest F) e.
Proof.
  intros Hbr Hsz Hrem H.
  exact (dec_take_op_fn (br_fuel br) sz m rem br [] x e ff F Hbr Hsz Hrem (br_fuel_gt br x e Hbr) H).
Qed.
