(* Http/C12ManyFacts.v — C12(c): any number of complete simple requests sent back to back are all
   delivered and answered, in order; then the server closes if the client has closed its sending
   side (half-close), and otherwise keeps the connection open. *)
From TH Require Import Base.Bytes Base.BytesFacts Http.Response Http.Request Http.Body Http.Serve
  Http.LineFacts Http.ServeFacts Http.ServeStreamFacts Http.C12ServeFacts.
From Coq Require Import Lia ZifyNat.

Definition is_vchar (c : ascii) : bool := ((33 <=? code c) && (code c <=? 126))%N.
Definition good_target (t : bytes) : Prop := forallb is_vchar t = true.
Definition sr_line (t : bytes) : bytes := s "GET " ++ t ++ s " HTTP/1.1".
Definition sr_bytes (t : bytes) : bytes := sr_line t ++ CRLF ++ s "Host: h" ++ CRLF ++ CRLF.
Definition GETB : bytes := s "GET".
Definition HOSTH : list header := [mkH (s "Host") (s "h")].

Lemma vchar_facts c : is_vchar c = true -> line_byte c = true /\ negb (Ascii.eqb c SP) = true.
Proof.
  intros H. split.
  - apply andb_true_iff. split.
    + apply andb_true_iff in H as [_ H%N.leb_le]. apply N.ltb_lt. lia.
    + destruct (Ascii.eqb_spec c LF) as [->|]; [discriminate H|reflexivity].
  - destruct (Ascii.eqb_spec c SP) as [->|]; [discriminate H|reflexivity].
Qed.

Lemma sr_line_facts t : good_target t ->
  forallb line_byte (sr_line t) = true /\
  parse_request_line (trim (sr_line t)) = Some (GETB, t, (1, 1)%N).
Proof.
  intros H. unfold sr_line. split.
  - rewrite !forallb_app, (forallb_impl _ _ t (fun c Hc => proj1 (vchar_facts c Hc)) H). reflexivity.
  - assert (Ht : trim (s "GET " ++ t ++ s " HTTP/1.1") = s "GET " ++ t ++ s " HTTP/1.1").
    { unfold trim. change (s "GET ") with ("G" :: s "ET "). cbn [app].
      rewrite trim_start_nonws by reflexivity.
      change (s " HTTP/1.1") with (s " HTTP/1." ++ ["1"]).
      change ("G" :: s "ET " ++ t ++ s " HTTP/1." ++ ["1"]) with (("G" :: s "ET ") ++ t ++ s " HTTP/1." ++ ["1"]).
      rewrite !app_assoc. apply (trim_end_app_nonws _ "1" []). reflexivity. }
    rewrite Ht. unfold parse_request_line.
    change (s "GET " ++ t ++ s " HTTP/1.1") with (s "GET" ++ SP :: (t ++ SP :: s "HTTP/1.1")).
    rewrite split_on_sep by reflexivity.
    rewrite split_on_sep by exact (forallb_impl _ _ t (fun c Hc => proj2 (vchar_facts c Hc)) H).
    rewrite split_on_nosep by reflexivity. reflexivity.
Qed.

Theorem sr_head t : good_target t -> read_head fixed (sr_bytes t) = HeadOk GETB t (1, 1)%N HOSTH [].
Proof.
  intros H. destruct (sr_line_facts t H) as (H1 & H3). apply line_bytes in H1 as [H1 H2].
  unfold read_head, sr_bytes. rewrite read_line_app by exact H2. rewrite H1. cbn [negb]. rewrite H3.
  reflexivity.
Qed.

Section Many.
Variables (date : bytes) (dflt : action).

Definition act_wire (a : action) : bytes := wire_empty date a GETB (1, 1)%N HOSTH false.
Definition act_ok (a : action) : bool := ok_empty date a GETB (1, 1)%N HOSTH false.
Definition act_delivered (a : action) (t : bytes) : delivered := d_empty a GETB t (1, 1)%N HOSTH None.

Fixpoint answers (script : list action) (ts : list bytes) : bytes :=
  match ts with
  | [] => []
  | _ :: ts' => act_wire (act_of script dflt) ++ answers (script_tl script) ts'
  end.
Fixpoint deliveries (script : list action) (ts : list bytes) : list delivered :=
  match ts with
  | [] => []
  | t :: ts' => act_delivered (act_of script dflt) t :: deliveries (script_tl script) ts'
  end.
Fixpoint all_ok (script : list action) (ts : list bytes) : bool :=
  match ts with
  | [] => true
  | _ :: ts' => act_ok (act_of script dflt) && all_ok (script_tl script) ts'
  end.

Definition pipeline (ts : list bytes) : bytes := List.concat (map sr_bytes ts).

(* x: what follows the complete requests; its head is incomplete (possibly x = []) *)
Lemma serve_loop_pipeline x : read_head fixed x = HeadEof -> forall ts, Forall good_target ts ->
  forall f script wire reqs al ok eof, (List.length (pipeline ts ++ x) < f)%nat ->
  serve_loop fixed date f script dflt (mkS (pipeline ts ++ x) eof) wire reqs al ok =
  mkO (frev reqs ++ deliveries script ts) (wire ++ answers script ts)
      (if eof then CClosed else COpen) al (ok && all_ok script ts).
Proof.
  intros Hx. induction ts as [|t ts IH]; intros Hg f script wire reqs al ok eof Hlen;
    (destruct f as [|f]; [lia|]).
  - rewrite serve_loop_S, step_head_eof by exact Hx. cbn [run_step seof deliveries answers all_ok].
    now rewrite !app_nil_r, andb_true_r.
  - inversion Hg as [|t0 ts0 Ht Hts]; subst. change (pipeline (t :: ts)) with (sr_bytes t ++ pipeline ts) in *.
    rewrite <- app_assoc in *.
    rewrite (no_body_continues fixed date script dflt (mkS _ eof) wire reqs al ok GETB t (1, 1)%N HOSTH _
               None false (read_head_app _ _ _ _ _ _ _ _ (sr_head t Ht)) eq_refl eq_refl f eq_refl).
    rewrite IH; [|exact Hts|].
    2: { unfold sr_bytes in Hlen. rewrite !app_length in Hlen. cbn [CRLF List.length] in Hlen.
         rewrite app_length. lia. }
    rewrite frev_cons. cbn [deliveries answers all_ok]. unfold act_delivered, act_wire, act_ok.
    now rewrite <- !app_assoc, andb_assoc.
Qed.

Theorem serve_pipeline script ts x eof : Forall good_target ts -> read_head fixed x = HeadEof ->
  serve fixed date script dflt (pipeline ts ++ x) eof =
  mkO (deliveries script ts) (answers script ts) (if eof then CClosed else COpen) [] (all_ok script ts).
Proof. intros H Hx. unfold serve. rewrite (serve_loop_pipeline x Hx ts H) by lia. reflexivity. Qed.

Corollary pipeline_all_answered script ts eof : Forall good_target ts ->
  serve fixed date script dflt (pipeline ts) eof =
  mkO (deliveries script ts) (answers script ts) (if eof then CClosed else COpen) [] (all_ok script ts).
Proof. intros H. rewrite <- (app_nil_r (pipeline ts)). now apply serve_pipeline. Qed.
End Many.
