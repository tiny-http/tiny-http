(* Http/ReaderOpFacts.v — bridge lemmas for the operational readers of Http/ReaderOp.v (C13):
   every consumer's result, and the logical stream `contents` left in the BufReader afterwards,
   are FUNCTIONS (`*_fn`, defined on plain byte lists) of `contents` before and of the
   end-of-stream flag (`computes op fn`); how the bytes are split between the BufReader's buffer and
   the pending client segments plays no role. The fuel of every loop is shown sufficient (no
   LFuel/SBFuel/None). *)
From TH Require Import Base.Bytes Base.BytesFacts Http.Request Http.Body Http.ReaderOp.
From Coq Require Import Lia ZArith.
Open Scope char_scope.

(* A consumer started in a state that holds x ends in one that holds the rest of x with the same e,
   so the induction hypothesis of a loop applies to the state after one step as it stands. *)
Definition holds (br : bufreader) (x : bytes) (e : bool) : Prop :=
  wf br /\ contents br = x /\ br_eof br = e.

Lemma holds_now br : wf br -> holds br (contents br) (br_eof br).
Proof. unfold holds. auto. Qed.

(* holds br' rest (br_eof br), in the form Props/C13.v states *)
Definition lands (br br' : bufreader) (rest : bytes) : Prop :=
  contents br' = rest /\ wf br' /\ br_eof br' = br_eof br.

Lemma lands_trans br br1 br2 r1 r2 : lands br br1 r1 -> lands br1 br2 r2 -> lands br br2 r2.
Proof. unfold lands. intros (_ & _ & E1) (C & W & E2). repeat split; auto. congruence. Qed.

Lemma holds_lands br br' x rest e : holds br x e -> holds br' rest e -> lands br br' rest.
Proof. intros (_ & _ & E) (W & C & E'). unfold lands. repeat split; auto. congruence. Qed.

Definition computes {R : Type} (op : bufreader -> R * bufreader) (fn : bytes -> bool -> R * bytes) : Prop :=
  forall br x e, holds br x e ->
  exists br', op br = (fst (fn x e), br') /\ holds br' (snd (fn x e)) e.

Lemma computes_lands {R : Type} (op : bufreader -> R * bufreader) fn : computes op fn ->
  forall br, wf br ->
  exists br', op br = (fst (fn (contents br) (br_eof br)), br') /\
              lands br br' (snd (fn (contents br) (br_eof br))).
Proof.
  intros H br W. destruct (H br _ _ (holds_now br W)) as (br' & Hr & Hh).
  exists br'. split; [exact Hr|]. exact (holds_lands _ _ _ _ _ (holds_now br W) Hh).
Qed.

(* a function of Http/Body.v on streams, in the form `computes` asks for *)
Definition on_stream {R : Type} (pure : stream -> R * stream) (x : bytes) (e : bool) : R * bytes :=
  (fst (pure (mkS x e)), sbytes (snd (pure (mkS x e)))).

Lemma wf_br_init segs e : wf (br_init segs e).
Proof.
  unfold wf, wf_src, br_init. cbn [src pending]. apply Forall_forall. intros g Hg.
  apply filter_In in Hg. destruct Hg as (_ & Hg). destruct g; discriminate.
Qed.

Lemma concat_filter_nonempty (segs : list bytes) : List.concat (filter nonempty segs) = List.concat segs.
Proof.
  induction segs as [|g t IH]; [reflexivity|]. cbn [filter]. destruct g as [|a g]; cbn [nonempty List.concat].
  - exact IH.
  - now rewrite IH.
Qed.

Lemma contents_br_init segs e : contents (br_init segs e) = List.concat segs.
Proof. unfold contents, br_init. cbn [buf src pending]. apply concat_filter_nonempty. Qed.

Lemma contents_br_feed segs br : contents (br_feed segs br) = contents br ++ List.concat segs.
Proof. unfold contents, br_feed. cbn [buf src pending]. now rewrite concat_app, app_assoc. Qed.

Lemma wf_br_feed segs br : wf br -> Forall (fun g => g <> []) segs -> wf (br_feed segs br).
Proof. unfold wf, wf_src, br_feed. cbn [src pending]. intros H1 H2. apply Forall_app. split; assumption. Qed.

Lemma holds_br_feed segs br x e : holds br x e -> Forall (fun g => g <> []) segs ->
  holds (br_feed segs br) (x ++ List.concat segs) e.
Proof.
  intros (W & C & E) Hs. split; [exact (wf_br_feed segs br W Hs)|]. rewrite contents_br_feed, C.
  split; [reflexivity|exact E].
Qed.

Lemma contents_br_close br : contents (br_close br) = contents br.
Proof. reflexivity. Qed.

Lemma CAP_pos : 0 < CAP.
Proof. unfold CAP. lia. Qed.

Lemma firstn_nonempty (n : nat) (g : bytes) : 0 < n -> g <> [] -> firstn n g <> [].
Proof. destruct n; [lia|]. destruct g; [congruence|]. intros _ _. cbn [firstn]. discriminate. Qed.

Lemma sock_read_spec n x : wf_src x -> 0 < n ->
  match sock_read n x with
  | (OData a, x') => List.concat (pending x) = a ++ List.concat (pending x') /\ a <> [] /\ List.length a <= n /\
                     wf_src x' /\ eof x' = eof x
  | (OEof, x') => x' = x /\ pending x = [] /\ eof x = true
  | (OBlock, x') => x' = x /\ pending x = [] /\ eof x = false
  end.
Proof.
  unfold sock_read, wf_src. intros Hwf Hn. destruct (pending x) as [|g rest] eqn:E.
  - destruct (eof x); auto.
  - inversion Hwf as [|? ? Hg Hrest]; subst. cbn [pending eof]. repeat split.
    + rewrite <- (firstn_skipn n g) at 1. cbn [List.concat].
      destruct (skipn n g); cbn [List.concat]; rewrite <- ?app_assoc, ?app_nil_r; reflexivity.
    + apply firstn_nonempty; assumption.
    + rewrite firstn_length. lia.
    + destruct (skipn n g) eqn:Es; [assumption|]. constructor; [discriminate|assumption].
Qed.

Lemma hand_out_spec n b x : 0 < n -> b <> [] ->
  exists a, hand_out n b x = (OData a, mkBR (skipn n b) x) /\ b = a ++ skipn n b /\ a <> [] /\ List.length a <= n.
Proof.
  intros Hn Hb. unfold hand_out. pose proof (firstn_nonempty n b Hn Hb) as Hf.
  destruct (firstn n b) as [|a0 a] eqn:E; [congruence|]. exists (a0 :: a). repeat split.
  - rewrite <- E. symmetry. apply firstn_skipn.
  - discriminate.
  - rewrite <- E, firstn_length. lia.
Qed.

Lemma br_read_spec n br : wf br -> 0 < n ->
  match br_read n br with
  | (OData a, br') => contents br = a ++ contents br' /\ a <> [] /\ List.length a <= n /\
                      wf br' /\ br_eof br' = br_eof br
  | (OEof, br') => contents br = [] /\ br_eof br = true /\ lands br br' []
  | (OBlock, br') => contents br = [] /\ br_eof br = false /\ lands br br' []
  end.
Proof.
  intros Hwf Hn. unfold br_read, lands, contents, br_eof, wf in *. destruct (buf br) as [|b0 b] eqn:Eb.
  - destruct (Nat.leb CAP n).
    + pose proof (sock_read_spec n (src br) Hwf Hn) as Hs.
      destruct (sock_read n (src br)) as [[a| |] s']; cbn [buf src].
      2, 3: destruct Hs as (-> & H2 & H3); rewrite H2; cbn [app List.concat]; repeat split; auto.
      destruct Hs as (H1 & H2 & H3 & H4 & H5). cbn [app]. repeat split; auto.
    + pose proof (sock_read_spec CAP (src br) Hwf CAP_pos) as Hs.
      destruct (sock_read CAP (src br)) as [[a| |] s']; cbn [buf src].
      2, 3: destruct Hs as (-> & H2 & H3); rewrite H2; cbn [app List.concat]; repeat split; auto.
      destruct Hs as (H1 & H2 & H3 & H4 & H5).
      destruct (hand_out_spec n a s' Hn H2) as (d & Hh & Hd1 & Hd2 & Hd3). rewrite Hh. cbn [buf src app].
      repeat split; auto. rewrite H1. rewrite Hd1 at 1. now rewrite app_assoc.
  - destruct (hand_out_spec n (b0 :: b) (src br) Hn ltac:(discriminate)) as (d & Hh & Hd1 & Hd2 & Hd3).
    rewrite Hh. cbn [buf src]. repeat split; auto. rewrite Hd1 at 1. now rewrite app_assoc.
Qed.

Lemma br_read_cases n br x e : holds br x e -> 0 < n ->
  exists br',
    (x = [] /\ br_read n br = (if e then OEof else OBlock, br') /\ holds br' [] e) \/
    (exists d x', x = d ++ x' /\ d <> [] /\ List.length d <= n /\
                  br_read n br = (OData d, br') /\ holds br' x' e).
Proof.
  intros (W & <- & <-) Hn. pose proof (br_read_spec n br W Hn) as Hs. unfold lands, holds in *.
  destruct (br_read n br) as [[d| |] br']; exists br'.
  - right. destruct Hs as (C & Hd & Hl & W' & E'). exists d, (contents br'). repeat split; auto.
  - left. destruct Hs as (C & -> & C' & W' & E'). auto.
  - left. destruct Hs as (C & -> & C' & W' & E'). auto.
Qed.

Lemma br_byte_fn : computes br_byte (on_stream src_byte).
Proof.
  intros br x e Hbr. unfold br_byte.
  destruct (br_read_cases 1 br x e Hbr ltac:(lia)) as (br' & [(-> & -> & Hbr')|(d & x' & -> & Hd & Hl & -> & Hbr')]);
    exists br'.
  - destruct e; auto.
  - destruct d as [|b [|b' d]]; [congruence| |cbn [List.length] in Hl; lia]. auto.
Qed.

Definition st_of (br : bufreader) : stream := mkS (contents br) (br_eof br).

Lemma holds_st_of br x e : holds br x e -> st_of br = mkS x e.
Proof. intros (_ & <- & <-). reflexivity. Qed.

Lemma br_fuel_gt br x e : holds br x e -> List.length x < br_fuel br.
Proof. intros (_ & <- & _). unfold br_fuel. lia. Qed.

(* read_next_line as a function of the logical stream x and the end-of-stream flag e *)
Fixpoint line_fn (acc : bytes) (prev_cr : bool) (x : bytes) (e : bool) : lres * bytes :=
  match x with
  | [] => (if e then LEof else LBlock acc prev_cr, [])
  | b :: t => if Ascii.eqb b LF && prev_cr then (LLine (frev (tl acc)), t)
              else line_fn (b :: acc) (Ascii.eqb b CR) t e
  end.

Theorem read_line_op_aux_fn : forall fuel x acc p br e, holds br x e -> List.length x < fuel ->
  exists br', read_line_op_aux fuel acc p br = (fst (line_fn acc p x e), br') /\
              holds br' (snd (line_fn acc p x e)) e.
Proof.
  induction fuel as [|f IH]; intros x acc p br e Hbr Hf; [lia|]. cbn [read_line_op_aux].
  destruct (br_byte_fn br _ _ Hbr) as (br' & -> & Hbr').
  destruct x as [|b x]; cbn [on_stream src_byte sbytes seof fst snd line_fn List.length] in *.
  - exists br'. destruct e; auto.
  - destruct (Ascii.eqb b LF && p); [exists br'; auto|]. apply IH; [exact Hbr'|lia].
Qed.

Theorem read_line_op_fn : computes read_line_op (line_fn [] false).
Proof. intros br x e Hbr. apply read_line_op_aux_fn; [exact Hbr|exact (br_fuel_gt br x e Hbr)]. Qed.

(* when the line is not complete, resuming the wait with the locals (acc', p') on whatever arrives
   later equals reading the whole stream at once *)
Lemma line_fn_read_line_aux : forall x acc p e,
  match read_line_aux acc p x with
  | Some (l, rest) => line_fn acc p x e = (LLine l, rest)
  | None => exists acc' p', line_fn acc p x e = (if e then LEof else LBlock acc' p', []) /\
                            forall more, read_line_aux acc p (x ++ more) = read_line_aux acc' p' more
  end.
Proof.
  induction x as [|b x IH]; intros acc p e; cbn [read_line_aux line_fn].
  - exists acc, p. split; reflexivity.
  - destruct (Ascii.eqb b LF && p) eqn:E; [reflexivity|].
    specialize (IH (b :: acc) (Ascii.eqb b CR) e).
    destruct (read_line_aux (b :: acc) (Ascii.eqb b CR) x) as [[l rest]|]; [exact IH|].
    destruct IH as (acc' & p' & H1 & H2). exists acc', p'. split; [exact H1|].
    intros more. cbn [app read_line_aux]. rewrite E. apply H2.
Qed.

Lemma read_line_holds br x e : holds br x e ->
  match read_line x with
  | Some (l, rest) => exists br', read_line_op br = (LLine l, br') /\ holds br' rest e
  | None => exists br' acc p, read_line_op br = (if e then LEof else LBlock acc p, br') /\
                              holds br' [] e /\
                              forall more, read_line (x ++ more) = read_line_aux acc p more
  end.
Proof.
  intros Hbr. destruct (read_line_op_fn br x e Hbr) as (br' & Hr & Hbr').
  pose proof (line_fn_read_line_aux x [] false e) as Hp. unfold read_line.
  destruct (read_line_aux [] false x) as [[l rest]|].
  - rewrite Hp in Hr, Hbr'. exists br'. auto.
  - destruct Hp as (acc & p & Hp & Hm). rewrite Hp in Hr, Hbr'. exists br', acc, p. auto.
Qed.

Theorem read_line_bridge br : wf br ->
  match read_line (contents br) with
  | Some (l, rest) => exists br', read_line_op br = (LLine l, br') /\ lands br br' rest
  | None => exists br' acc p, read_line_op br = (if br_eof br then LEof else LBlock acc p, br') /\
                              lands br br' [] /\
                              forall more, read_line (contents br ++ more) = read_line_aux acc p more
  end.
Proof.
  intros Hwf. pose proof (holds_now br Hwf) as Hbr. pose proof (read_line_holds br _ _ Hbr) as Hb.
  destruct (read_line (contents br)) as [[l rest]|].
  - destruct Hb as (br' & Hr & Hbr'). exists br'. split; [exact Hr|]. exact (holds_lands _ _ _ _ _ Hbr Hbr').
  - destruct Hb as (br' & acc & p & Hr & Hbr' & Hm). exists br', acc, p.
    split; [exact Hr|]. split; [exact (holds_lands _ _ _ _ _ Hbr Hbr')|exact Hm].
Qed.

Corollary read_line_op_sound br l br' : wf br -> read_line_op br = (LLine l, br') ->
  read_line (contents br) = Some (l, contents br').
Proof.
  intros Hwf H. pose proof (read_line_bridge br Hwf) as Hb.
  destruct (read_line (contents br)) as [[l0 rest]|].
  - destruct Hb as (br0 & H0 & (C & _)). rewrite H in H0. inversion H0; subst. reflexivity.
  - destruct Hb as (br0 & acc & p & H0 & _). rewrite H in H0. destruct (br_eof br); discriminate.
Qed.

(* a line reader that had to wait, resumed on the segments that arrive later, returns what a reader
   that found everything already there returns *)
Lemma line_fn_resume acc p more : forall x a q e, fst (line_fn a q x e) = LBlock acc p ->
  line_fn a q (x ++ more) e = line_fn acc p more e /\ snd (line_fn a q x e) = [].
Proof.
  induction x as [|b x IH]; intros a q e Hx; cbn [line_fn app] in *.
  - destruct e; cbn [fst] in Hx; [discriminate|]. inversion Hx; subst. auto.
  - destruct (Ascii.eqb b LF && q); [cbn [fst] in Hx; discriminate|]. apply IH, Hx.
Qed.

Theorem read_line_resume br x e acc p br1 segs : holds br x e ->
  Forall (fun g => g <> []) segs ->
  read_line_op br = (LBlock acc p, br1) ->
  exists br2, read_line_op_aux (br_fuel (br_feed segs br1)) acc p (br_feed segs br1)
              = (fst (line_fn [] false (x ++ List.concat segs) e), br2) /\
              holds br2 (snd (line_fn [] false (x ++ List.concat segs) e)) e.
Proof.
  intros Hbr Hsegs H. destruct (read_line_op_fn br x e Hbr) as (br' & Hr & Hbr').
  rewrite H in Hr. inversion Hr as [[Hfst Hbr1]]. subst br'.
  destruct (line_fn_resume acc p (List.concat segs) _ _ _ _ (eq_sym Hfst)) as (-> & Hnil).
  rewrite Hnil in Hbr'. pose proof (holds_br_feed segs br1 [] e Hbr' Hsegs) as Hfed.
  apply read_line_op_aux_fn; [exact Hfed|exact (br_fuel_gt _ _ _ Hfed)].
Qed.

Definition small_body_fn (need : nat) (acc x : bytes) (e : bool) : sbres * bytes :=
  if Nat.leb need (List.length x) then (SBFull (acc ++ firstn need x), skipn need x)
  else (if e then SBEof (acc ++ x) else SBBlock (acc ++ x), []).

Lemma small_body_fn_step need acc (a x : bytes) e : List.length a <= need ->
  small_body_fn need acc (a ++ x) e = small_body_fn (need - List.length a) (acc ++ a) x e.
Proof.
  intros Hl. unfold small_body_fn. rewrite app_length.
  destruct (Nat.leb_spec need (List.length a + List.length x));
    destruct (Nat.leb_spec (need - List.length a) (List.length x)); try lia.
  - rewrite firstn_app, skipn_app, (firstn_all2 a), (skipn_all2 a) by lia.
    cbn [app]. now rewrite <- app_assoc.
  - now rewrite <- app_assoc.
Qed.

Lemma small_body_fn_nil need acc e :
  small_body_fn (S need) acc [] e = (if e then SBEof acc else SBBlock acc, []).
Proof. unfold small_body_fn. cbn [List.length Nat.leb]. now rewrite app_nil_r. Qed.

Theorem read_small_body_aux_fn : forall fuel need acc br x e, holds br x e -> List.length x < fuel ->
  exists br', read_small_body_aux fuel need acc br = (fst (small_body_fn need acc x e), br') /\
              holds br' (snd (small_body_fn need acc x e)) e.
Proof.
  induction fuel as [|f IH]; intros need acc br x e Hbr Hf; [lia|].
  destruct need as [|need].
  - exists br. unfold small_body_fn. cbn [read_small_body_aux Nat.leb firstn skipn fst snd].
    rewrite app_nil_r. auto.
  - cbn [read_small_body_aux].
    destruct (br_read_cases (S need) br x e Hbr ltac:(lia)) as (br' & [(-> & -> & Hbr')|(a & x' & -> & Ha & Hl & -> & Hbr')]).
    + rewrite small_body_fn_nil. exists br'. destruct e; auto.
    + rewrite small_body_fn_step by assumption.
      apply IH; [exact Hbr'|]. apply length_pos in Ha. rewrite app_length in Hf. lia.
Qed.

Theorem read_small_body_op_fn n : computes (read_small_body_op n) (small_body_fn n []).
Proof. intros br x e Hbr. apply read_small_body_aux_fn; [exact Hbr|exact (br_fuel_gt br x e Hbr)]. Qed.

Lemma N_leb_add_l k a b : (k + a <=? k + b)%N = (a <=? b)%N.
Proof. destruct (N.leb_spec a b), (N.leb_spec (k + a) (k + b)); lia || reflexivity. Qed.

Lemma N_ltb_add_l k a b : (k + a <? k + b)%N = (a <? b)%N.
Proof. destruct (N.ltb_spec a b), (N.ltb_spec (k + a) (k + b)); lia || reflexivity. Qed.

Lemma N_sub_add_l k a b : (k + a - (k + b) = a - b)%N.
Proof. lia. Qed.
