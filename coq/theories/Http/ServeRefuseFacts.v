(* Http/ServeRefuseFacts.v — one iteration of the connection loop for each way a request is refused
   (C16c, C10). *)
From TH Require Import Base.Bytes Http.Response Http.Request Http.Body Http.Serve Http.ServeFacts.

(* a response to a request that has no (known) headers is always within the modelled domain *)
Lemma render_nohdr date r ver nb up : snd (render date r ver [] nb up) = true.
Proof.
  unfold render, raw_print, choose_te.
  destruct (ver_le ver (1, 0)%N); [reflexivity|].
  destruct ((status r <? 200)%N || (status r =? 204)%N); [reflexivity|].
  change (te_wish []) with (Some (@None coding)). cbv iota.
  destruct (data_length r) as [n|]; [destruct (chunked_threshold r <=? n)%N|]; reflexivity.
Qed.

Definition error_bytes (date : bytes) (st : N) (ver : version) (no_body : bool) : bytes :=
  fst (render date (empty_response st) ver [] no_body None).
Definition r505 : response :=
  build (from_string (s "This server only supports HTTP versions 1.0 and 1.1")) [WithStatus 505].
Definition bytes_505 (date : bytes) : bytes := fst (render date r505 (1, 1)%N [] false None).

Lemma render_split date r ver nb up : render date r ver [] nb up = (fst (render date r ver [] nb up), true).
Proof. rewrite <- (render_nohdr date r ver nb up). now destruct (render date r ver [] nb up). Qed.

Lemma error_render date st ver nb :
  render date (empty_response st) ver [] nb None = (error_bytes date st ver nb, true).
Proof. apply render_split. Qed.

(* resp505 is the response serve_loop writes out in full; r505 is the same term *)
Lemma render_505 date : render date resp505 (1, 1)%N [] false None = (bytes_505 date, true).
Proof. apply (render_split date r505). Qed.

Lemma error_bytes_status_line date st ver nb : exists more,
  error_bytes date st ver nb =
  s "HTTP/" ++ print_dec (fst ver) ++ s "." ++ print_dec (snd ver) ++ [SP] ++ print_dec st ++ [SP]
  ++ Reason.reason_phrase st ++ CRLF ++ more.
Proof.
  unfold error_bytes, render, raw_print.
  destruct (choose_te (status (empty_response st)) [] ver (data_length (empty_response st))
                      (chunked_threshold (empty_response st))) as [c|] eqn:E.
  - cbn [fst]. unfold raw_print_with, Response.render_head.
    change (status (empty_response st)) with st.
    eexists. rewrite <- !app_assoc. reflexivity.
  - pose proof (render_nohdr date (empty_response st) ver nb None) as H.
    unfold render, raw_print in H. rewrite E in H. discriminate.
Qed.

Section Step.
Variables (c : cfg) (date : bytes) (f : nat) (script : list action) (dflt : action)
          (st : stream) (wire : bytes) (reqs : list delivered) (al : allocs) (ok : bool).

(* the four refusals end the loop in the same way *)
Lemma loop_refused code ver nb :
  serve_step c date script dflt st wire reqs al ok =
    SDone (mkO (frev reqs) (wire ++ fst (render date (empty_response code) ver [] nb None)) CClosed al
               (ok && snd (render date (empty_response code) ver [] nb None))) ->
  serve_loop c date (S f) script dflt st wire reqs al ok
  = mkO (frev reqs) (wire ++ error_bytes date code ver nb) CClosed al ok.
Proof.
  intros E. rewrite (serve_loop_done _ _ _ _ _ _ _ _ _ _ _ E), error_render. cbn [fst snd].
  now rewrite andb_true_r.
Qed.

Lemma step_bad_header ver : read_head c (sbytes st) = HeadBadHeader ver ->
  serve_loop c date (S f) script dflt st wire reqs al ok
  = mkO (frev reqs) (wire ++ error_bytes date 400 ver false) CClosed al ok.
Proof. intros H. apply loop_refused, step_head_badheader, H. Qed.

Lemma step_bad_line : read_head c (sbytes st) = HeadBadLine ->
  serve_loop c date (S f) script dflt st wire reqs al ok
  = mkO (frev reqs) (wire ++ error_bytes date 400 (1, 1)%N false) CClosed al ok.
Proof. intros H. apply loop_refused, step_head_badline, H. Qed.

Lemma step_non_ascii : read_head c (sbytes st) = HeadNonAscii ->
  serve_loop c date (S f) script dflt st wire reqs al ok = mkO (frev reqs) wire CClosed al ok.
Proof. intros H. apply serve_loop_done, step_head_nonascii, H. Qed.

Lemma step_eof : read_head c (sbytes st) = HeadEof ->
  serve_loop c date (S f) script dflt st wire reqs al ok
  = mkO (frev reqs) wire (if seof st then CClosed else COpen) al ok.
Proof. intros H. apply serve_loop_done, step_head_eof, H. Qed.

Lemma step_bad_content_length m url ver hs rest :
  read_head c (sbytes st) = HeadOk m url ver hs rest -> framing c hs = FrBadContentLength ->
  serve_loop c date (S f) script dflt st wire reqs al ok
  = mkO (frev reqs) (wire ++ error_bytes date 400 ver false) CClosed al ok.
Proof.
  intros H F. apply loop_refused. eapply ServeFacts.step_bad_content_length; eassumption.
Qed.

Lemma step_expectation_failed m url ver hs rest :
  read_head c (sbytes st) = HeadOk m url ver hs rest -> framing c hs = FrExpectationFailed ->
  serve_loop c date (S f) script dflt st wire reqs al ok
  = mkO (frev reqs) (wire ++ error_bytes date 417 ver true) CClosed al ok.
Proof.
  intros H F. apply loop_refused. eapply ServeFacts.step_expectation_failed; eassumption.
Qed.
End Step.

(* the reader new_request builds, as in serve_loop: ServeFacts.built_of, under the name the
   statements of this file use *)
Definition build_reader (kind : body_kind) (rest : bytes) (eof : bool) (al : allocs)
  : option (breader * stream * allocs) + conn_end :=
  match kind with
  | KUpgrade => inl (Some (BUpgrade, mkS rest eof, al))
  | KEmpty => inl (Some (BEmpty, mkS rest eof, al))
  | KLimited n => inl (Some (BLimited n, mkS rest eof, al))
  | KChunked => inl (Some (BChunked None false, mkS rest eof, al))
  | KBuffered n =>
      if (n <=? len rest)%N then
        inl (Some (BBuffered (firstn (N.to_nat n) rest), mkS (skipn (N.to_nat n) rest) eof, n :: al))
      else if eof then inr CClosed else inr COpen
  end.

Lemma step_505 date f script dflt st wire reqs al ok m url ver hs rest kind bl ex rd st1 al1 :
  read_head fixed (sbytes st) = HeadOk m url ver hs rest -> framing fixed hs = FrOk kind bl ex ->
  ver_gt_11 ver = true ->
  build_reader kind rest (seof st) al = inl (Some (rd, st1, al1)) ->
  serve_loop fixed date (S f) script dflt st wire reqs al ok
  = serve_loop fixed date f script dflt (fst (body_drop fixed rd st1 al1)) (wire ++ bytes_505 date) reqs
               (snd (body_drop fixed rd st1 al1)) ok.
Proof.
  intros H F V B. change build_reader with built_of in B.
  rewrite serve_loop_S, (step_delivered _ _ _ _ _ _ _ _ _ _ _ _ _ _ H _ _ _ _ _ _ F B),
    (deliver_505 fixed _ _ _ _ _ _ _ _ _ _ _ _ _ _ _ V eq_refl).
  cbn [run_step]. rewrite render_505. cbn [fst snd]. now rewrite andb_true_r.
Qed.

Lemma step_505_no_body date f script dflt st wire reqs al ok m url ver hs rest bl ex :
  read_head fixed (sbytes st) = HeadOk m url ver hs rest -> framing fixed hs = FrOk KEmpty bl ex ->
  ver_gt_11 ver = true ->
  serve_loop fixed date (S f) script dflt st wire reqs al ok
  = serve_loop fixed date f script dflt (mkS rest (seof st)) (wire ++ bytes_505 date) reqs al ok.
Proof. intros H F V. now rewrite (step_505 _ _ _ _ _ _ _ _ _ _ _ _ _ _ _ _ _ _ _ _ H F V eq_refl). Qed.
