(* Http/ChunkedReader.v — the chunked body reader (FusedReader(DrainOnDrop(Decoder))) on ARBITRARY
   well-formed chunkings: the one-read specification of the decoder and the instance of the generic
   argument of BodyFacts.v (C03: exactly the concatenated payloads, end-of-stream exactly after the
   last chunk; C09: drop drains exactly to the first byte after the body). `dgo`, the inner function
   of dec_read, is defined in Http/StreamFacts.v. *)
From TH Require Import Base.Bytes Base.BytesFacts Http.Request Http.Body.
From TH Require Import Http.BodyFacts Http.StreamFacts Http.ChunkedFacts.
From Coq Require Import Lia ZArith.
Open Scope char_scope.

(* a chunk as sent: its size line (without CRLF) and its non-empty payload *)
Definition chunk := (bytes * bytes)%type.
Definition chunk_ok (c : chunk) : Prop := size_line_ok (fst c) (len (snd c)) /\ snd c <> [].
(* the body on the wire: the chunks, the last-chunk line `last` (any accepted line announcing 0),
   the closing CRLF (no trailers), then whatever follows on the connection *)
Fixpoint enc (chs : list chunk) (last tail : bytes) : bytes :=
  match chs with
  | [] => last ++ CRLF ++ CRLF ++ tail
  | c :: t => fst c ++ CRLF ++ snd c ++ CRLF ++ enc t last tail
  end.
Definition payload (chs : list chunk) : bytes := List.concat (map snd chs).

Lemma payload_le_enc chs last tail : (List.length (payload chs) <= List.length (enc chs last tail))%nat.
Proof.
  induction chs as [|c t IH]; [cbn; lia|]. unfold payload in *. cbn [map List.concat enc].
  rewrite !app_length. lia.
Qed.

Section Chunked.
Variables last tail : bytes.

(* the decoder state against what is left of the wire and of the body: inside a chunk (cur = the
   unread part of its payload) or between chunks *)
Inductive rel : option N -> bytes -> bytes -> Prop :=
| RIn cur chs : cur <> [] -> Forall chunk_ok chs ->
    rel (Some (len cur)) (cur ++ CRLF ++ enc chs last tail) (cur ++ payload chs)
| ROut chs : Forall chunk_ok chs -> rel None (enc chs last tail) (payload chs).

Lemma rel_length rem x body : rel rem x body -> (List.length body <= List.length x)%nat.
Proof.
  intros [cur chs _ _|chs _]; [|apply payload_le_enc].
  rewrite !app_length. pose proof (payload_le_enc chs last tail). lia.
Qed.

Lemma dgo_spec n rem cur chs e : (0 < n)%nat -> cur <> [] -> Forall chunk_ok chs ->
  exists d rem' x' body',
    dgo n rem (len cur) (mkS (cur ++ CRLF ++ enc chs last tail) e) = (RData d, rem', mkS x' e) /\
    d <> [] /\ (List.length d <= n)%nat /\ cur ++ payload chs = d ++ body' /\ rel rem' x' body'.
Proof.
  intros Hn Hc Hch. pose proof (length_pos _ Hc) as Hl. unfold dgo.
  destruct (N.ltb_spec (N.of_nat n) (len cur)) as [Hlt|Hge].
  - unfold len in Hlt. rewrite src_read_app by lia. rewrite len_skipn.
    destruct (first_piece n n cur) as (Hd & Hdl & Hb); [lia|exact Hc|].
    exists (firstn n cur), (Some (len (skipn n cur))), (skipn n cur ++ CRLF ++ enc chs last tail), (skipn n cur ++ payload chs).
    repeat split; auto.
    + now rewrite app_assoc, <- Hb.
    + constructor; [|exact Hch]. intros E. apply (f_equal (@List.length ascii)) in E. rewrite skipn_length in E. cbn in E. lia.
  - unfold len in Hge. replace (N.to_nat (len cur)) with (List.length cur) by (unfold len; lia).
    rewrite src_read_app by lia. rewrite firstn_all, skipn_all. cbn [app].
    rewrite N.eqb_refl, read_crlf_ok.
    exists cur, None, (enc chs last tail), (payload chs). repeat split; auto; try lia.
    constructor. exact Hch.
Qed.

Hypothesis last_ok : size_line_ok last 0.

Theorem dec_read_spec n rem x body e : rel rem x body -> (0 < n)%nat ->
  (exists d rem' x' body', dec_read n rem (mkS x e) = (RData d, rem', mkS x' e) /\
       d <> [] /\ (List.length d <= n)%nat /\ body = d ++ body' /\ rel rem' x' body')
  \/ (body = [] /\ dec_read n rem (mkS x e) = (REof, None, mkS tail e)).
Proof.
  intros HR Hn. destruct HR as [cur chs Hc Hch|chs Hch].
  - left. rewrite dec_read_some. apply dgo_spec; auto.
  - rewrite dec_read_none. destruct chs as [|[sl p] chs].
    + right. split; [reflexivity|]. cbn [enc]. rewrite (read_chunk_size_ok last 0) by exact last_ok.
      rewrite N.eqb_refl. now rewrite read_crlf_ok.
    + left. inversion Hch as [|? ? [Hsl Hp] Hch']; subst. cbn [fst snd] in Hsl, Hp.
      cbn [enc fst snd]. rewrite (read_chunk_size_ok sl (len p)) by exact Hsl.
      destruct (N.eqb_spec (len p) 0) as [H0|_].
      { now apply len_0 in H0. }
      unfold payload. cbn [map List.concat snd]. apply dgo_spec; auto.
Qed.

Lemma drain_spec : forall fuel body rem x e, rel rem x body -> (List.length body < fuel)%nat ->
  drain_chunked fuel rem (mkS x e) = mkS tail e.
Proof.
  induction fuel as [|f IH]; intros body rem x e HR Hf; [lia|]. cbn [drain_chunked].
  (* the buffer size as a variable: 1024 in unary is a large term to carry through the case analysis *)
  generalize (Nat.lt_0_succ 1023). generalize 1024%nat. intros n Hn.
  destruct (dec_read_spec n rem x body e HR Hn) as [(d & rem' & x' & body' & E & Hd & _ & Hb & HR')|[Hb E]].
  - rewrite E. apply (IH body'); auto. apply length_pos in Hd. subst body. rewrite app_length in Hf. lia.
  - rewrite E. reflexivity.
Qed.

(* the reader a request owns: decoding, or fused after the last chunk *)
Definition ch_inv (rest : bytes) (r : breader) (st : stream) : Prop :=
  (exists rem, r = BChunked rem false /\ rel rem (sbytes st) rest) \/
  (rest = [] /\ r = BEmpty /\ sbytes st = tail).

Lemma ch_step : step_spec tail ch_inv.
Proof.
  intros n rest r st al Hn [(rem & -> & HR)|(-> & -> & Hs)].
  - destruct st as [x e]. cbn [sbytes] in HR. cbn [body_read].
    destruct (dec_read_spec n rem x rest e HR Hn) as [(d & rem' & x' & body' & E & Hd & Hl & Hb & HR')|[Hb E]].
    + left. rewrite E. exists d, body', (BChunked rem' false), (mkS x' e). repeat split; auto.
      left. exists rem'. split; [reflexivity|exact HR'].
    + right. split; [exact Hb|]. rewrite E. exists BEmpty, (mkS tail e). repeat split; auto using stable_empty.
      right. auto.
  - right. split; [reflexivity|]. exists BEmpty, st. cbn [body_read]. repeat split; auto using stable_empty. right; auto.
Qed.

Lemma ch_drop : drop_spec tail ch_inv.
Proof.
  intros rest r st al [(rem & -> & HR)|(-> & -> & Hs)]; [|exact Hs].
  cbn [body_drop fix_d4 fixed negb andb fst]. destruct st as [x e]. cbn [sbytes] in *.
  rewrite (drain_spec _ rest rem x e HR); [reflexivity|]. apply rel_length in HR. lia.
Qed.

Lemma ch_inv_init chs e : Forall chunk_ok chs ->
  ch_inv (payload chs) (BChunked None false) (mkS (enc chs last tail) e).
Proof. intros H. left. exists None. split; [reflexivity|]. constructor. exact H. Qed.
End Chunked.

(* Serve.do_reads gives `take` the fuel S (|pending bytes| + |data of a BBuffered reader|); for
   BChunked the second term is 0. It exceeds |body| *)
Lemma chunked_take_fuel chs last tail :
  (List.length (payload chs) < S (List.length (enc chs last tail) + 0))%nat.
Proof. pose proof (payload_le_enc chs last tail). lia. Qed.
