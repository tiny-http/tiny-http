(* Props/C19.v — Response header policy: protected names, one Content-Type, auto Date/Server.
   The statements, each derived in a few lines from the lemmas of Http/C19Facts.v and ResponseFacts.v. *)
From TH Require Import Base.Bytes Base.BytesFacts Http.Response Http.ResponseFacts Http.C19Spec Http.C19Facts.

(* The header list of ANY response built through a constructor + add_header/with_header/
   with_status_code/with_chunked_threshold/with_data equals the declarative policy `keep`
   applied to the headers supplied, in the order supplied. *)
Theorem c19_stored_headers_are_policy :
  forall st hs b dl ops,
    rheaders (build (new_response st hs b dl) ops) = keep (supplied_of hs ops).
Proof. intros. rewrite built_headers. apply add_hl_is_keep. Qed.
Print Assumptions c19_stored_headers_are_policy.

(* The header block written by raw_print is: [Connection, Upgrade if upgrading] ++ [Server unless
   supplied] ++ [Date unless supplied] ++ kept headers ++ [the framing header]. *)
Theorem c19_policy :
  forall date st hs b dl ops up te dlen,
    let r := build (new_response st hs b dl) ops in
    final_headers date r up te dlen =
    policy_headers date (supplied_of hs ops) up ++
    match te, dlen with
    | Some Chunked, _ => [mkH (s "Transfer-Encoding") (s "chunked")]
    | Some Identity, Some l => [mkH (s "Content-Length") (print_dec l)]
    | _, _ => []
    end.
Proof.
  intros date st hs b dl ops up te dlen r. rewrite final_headers_split, base_headers_eq. unfold r.
  now rewrite c19_stored_headers_are_policy.
Qed.
Print Assumptions c19_policy.

(* sent once each, in the order given (Content-Type handled separately) *)
Theorem c19_order_and_multiplicity :
  forall supplied,
    drop_ct (keep supplied) = filter (fun h => negb (unsendable h) && negb (is_ct h)) supplied.
Proof. intros supplied. rewrite keep_eq. cbv zeta. rewrite drop_ct_keep_ct. apply filter_filter. Qed.
Print Assumptions c19_order_and_multiplicity.

(* Connection, Trailer, Transfer-Encoding, Upgrade and Content-Length are never sent *)
Theorem c19_protected_never_sent :
  forall supplied, Forall (fun h => unsendable h = false) (keep supplied).
Proof.
  intros supplied. rewrite keep_eq. apply keep_ct_unsendable, Forall_forall.
  intros y Hy. apply filter_In in Hy as [_ Hy]. now destruct (unsendable y).
Qed.
Print Assumptions c19_protected_never_sent.

(* at most one Content-Type, carrying the value supplied last *)
Theorem c19_one_content_type :
  forall supplied,
    map hvalue (filter is_ct (keep supplied)) =
    match rev (filter is_ct (filter (fun h => negb (unsendable h)) supplied)) with
    | [] => []
    | l :: _ => [hvalue l]
    end.
Proof.
  intros supplied. rewrite keep_eq. cbv zeta. set (c := filter _ supplied). destruct (existsb is_ct c) eqn:Ex.
  - rewrite keep_ct_one by exact Ex. destruct (rev (filter is_ct c)) eqn:E; [|reflexivity].
    apply (f_equal (@rev _)) in E. rewrite rev_involutive in E. apply existsb_filter_nil in E. congruence.
  - rewrite keep_ct_no_ct by exact Ex. apply existsb_filter_nil in Ex. now rewrite Ex.
Qed.
Print Assumptions c19_one_content_type.

Theorem c19_cl_sets_length :
  forall r h v,
    forbidden h = false -> equiv "Content-Length" h = true -> parse_usize (hvalue h) = Some v ->
    add_header r h = set_length r (Some v).
Proof. intros r h v Hf Hcl Hv. unfold add_header. now rewrite Hf, Hcl, Hv. Qed.
Print Assumptions c19_cl_sets_length.

Theorem c19_bad_cl_ignored :
  forall r h,
    forbidden h = false -> equiv "Content-Length" h = true -> parse_usize (hvalue h) = None ->
    add_header r h = r.
Proof. intros r h Hf Hcl Hv. unfold add_header. now rewrite Hf, Hcl, Hv. Qed.
Print Assumptions c19_bad_cl_ignored.

Theorem c19_constructor_lengths :
  forall d st,
    data_length (from_data d) = Some (len d) /\ rbody (from_data d) = d /\
    data_length (from_string d) = Some (len d) /\ rbody (from_string d) = d /\
    data_length (empty_response st) = Some 0%N /\ rbody (empty_response st) = [].
Proof. repeat split. Qed.
Print Assumptions c19_constructor_lengths.

(* non-vacuity: protected names dropped, second Content-Type replaces the first in place *)
Example c19_example :
  keep [mkH (s "X-A") (s "1"); mkH (s "content-type") (s "a/b"); mkH (s "CONNECTION") (s "close");
        mkH (s "X-A") (s "2"); mkH (s "Content-Type") (s "c/d"); mkH (s "Content-Length") (s "7")]
  = [mkH (s "X-A") (s "1"); mkH (s "content-type") (s "c/d"); mkH (s "X-A") (s "2")].
Proof. vm_compute. reflexivity. Qed.
