(* Conc/SeqWriterChan.v — Conc/SeqWriter.v represents the one-message channel between neighbours by two flags;
   `step_chan` is the chain of src/util/sequential.rs (repaired tree) with that channel explicit: every writer has
   `trig` (its `trigger` field is still `Some receiver`, sequential.rs:63) and `released` (the `()` message sits
   unconsumed in that receiver's channel). The first writer is created with `trigger = None`
   (sequential.rs:80, 111-115); Drop of writer i sends the message to writer i+1
   (sequential.rs:186) — or, when writer i+1 does not exist yet, leaves it in the channel whose receiver the builder
   hands to the next writer (sequential.rs:110-112), which is why `New` initialises `released` from the predecessor's
   `cdropped`; write / flush / drop first consume the trigger (`wait`, sequential.rs:138-141, 147-150, 183-185).
   `abs` (released_i = dropped_{i-1} && ~turn_i, trig_i = (0<i) && ~turn_i) is a functional bisimulation
   from SeqWriter.step true to step_chan on all states satisfying the invariant — same enabledness, same stream. *)
From Coq Require Import List Arith Bool Lia.
Import ListNotations.
From TH Require Import Conc.SeqWriter Conc.SeqWriterFacts.

Local Arguments turn {byte}.
Local Arguments dropped {byte}.
Local Arguments sent {byte}.
Local Arguments ws {byte}.
Local Arguments stream {byte}.
Local Arguments New {byte}.
Local Arguments Write {byte}.
Local Arguments Flush {byte}.
Local Arguments DropW {byte}.
Local Arguments pred_done {byte}.
Local Arguments can_go {byte}.
Local Arguments step {byte}.
Local Arguments run {byte}.
Local Arguments init {byte}.
Local Arguments Inv {byte}.

Section Chan.
Variable byte : Type.
Notation bytes := (list byte).
Notation wr := (SeqWriter.wr byte).
Notation st := (SeqWriter.st byte).
Notation label := (SeqWriter.label byte).

Record cw := { trig : bool; released : bool; cdropped : bool; csent : bytes }.
Record cst := { cws : list cw; cstream : bytes }.
Implicit Types (s : st) (c : cst).

(* consume the trigger if still held: blocks (None) while the channel is empty *)
Definition wait (w : cw) : option cw :=
  if trig w then
    if released w then Some {| trig := false; released := false; cdropped := cdropped w; csent := csent w |} else None
  else Some w.

(* on_finish.send(()): put the message into the successor's channel *)
Definition release (l : list cw) (j : nat) : list cw :=
  match nth_error l j with
  | Some w => upd l j {| trig := trig w; released := true; cdropped := cdropped w; csent := csent w |}
  | None => l
  end.

Definition cpred_dropped (l : list cw) (i : nat) : bool :=
  match i with 0 => false | S j => match nth_error l j with Some w => cdropped w | None => false end end.

Definition step_chan (c : cst) (l : label) : option cst :=
  match l with
  | New => Some {| cws := cws c ++ [{| trig := 0 <? length (cws c);
                                      released := cpred_dropped (cws c) (length (cws c));
                                      cdropped := false; csent := [] |}];
                   cstream := cstream c |}
  | Write i d =>
      match nth_error (cws c) i with
      | Some w => if cdropped w then None else
          match wait w with
          | Some w1 => Some {| cws := upd (cws c) i {| trig := trig w1; released := released w1; cdropped := false; csent := csent w1 ++ d |};
                               cstream := cstream c ++ d |}
          | None => None
          end
      | None => None
      end
  | Flush i =>
      match nth_error (cws c) i with
      | Some w => if cdropped w then None else
          match wait w with
          | Some w1 => Some {| cws := upd (cws c) i {| trig := trig w1; released := released w1; cdropped := false; csent := csent w1 |};
                               cstream := cstream c |}
          | None => None
          end
      | None => None
      end
  | DropW i =>
      match nth_error (cws c) i with
      | Some w => if cdropped w then None else
          match wait w with
          | Some w1 => Some {| cws := release (upd (cws c) i {| trig := trig w1; released := released w1; cdropped := true; csent := csent w1 |}) (S i);
                               cstream := cstream c |}
          | None => None
          end
      | None => None
      end
  end.

Fixpoint run_chan (c : cst) (ls : list label) : option cst :=
  match ls with [] => Some c | l :: ls' => match step_chan c l with Some c' => run_chan c' ls' | None => None end end.

Definition cinit : cst := {| cws := []; cstream := [] |}.

Definition absw (l : list wr) (i : nat) (w : wr) : cw :=
  {| trig := (0 <? i) && negb (turn w);
     released := (0 <? i) && pred_done l i && negb (turn w);
     cdropped := dropped w; csent := sent w |}.

Fixpoint mapi_from {A B} (f : nat -> A -> B) (k : nat) (l : list A) : list B :=
  match l with [] => [] | a :: t => f k a :: mapi_from f (S k) t end.

Definition abs s : cst := {| cws := mapi_from (absw (ws s)) 0 (ws s); cstream := stream s |}.

Lemma nth_mapi_from {A B} (f : nat -> A -> B) (l : list A) : forall k i,
  nth_error (mapi_from f k l) i = option_map (f (k + i)) (nth_error l i).
Proof.
  induction l as [|a l IH]; intros k [|i]; cbn; auto.
  - now rewrite Nat.add_0_r.
  - rewrite IH. now rewrite Nat.add_succ_r.
Qed.

Lemma mapi_from_length {A B} (f : nat -> A -> B) (l : list A) : forall k, length (mapi_from f k l) = length l.
Proof. induction l as [|a l IH]; intros k; cbn; auto. Qed.

Lemma nth_abs s i : nth_error (cws (abs s)) i = option_map (absw (ws s) i) (nth_error (ws s) i).
Proof. unfold abs. cbn [cws]. now rewrite nth_mapi_from. Qed.

Lemma abs_length s : length (cws (abs s)) = length (ws s).
Proof. unfold abs. cbn [cws]. apply mapi_from_length. Qed.

Lemma list_ext {A} (l1 l2 : list A) : (forall i, nth_error l1 i = nth_error l2 i) -> l1 = l2.
Proof.
  revert l2; induction l1 as [|a l1 IH]; intros [|b l2] H; auto.
  - specialize (H 0); discriminate.
  - specialize (H 0); discriminate.
  - pose proof (H 0) as H0. cbn in H0. inversion H0; subst b. f_equal. apply IH. intros i. exact (H (S i)).
Qed.

Lemma abs_intro c s : cstream c = stream s ->
  (forall j, nth_error (cws c) j = option_map (absw (ws s) j) (nth_error (ws s) j)) -> c = abs s.
Proof.
  intros Hs Hn. destruct c as [l b]. cbn in *. subst b. unfold abs. f_equal.
  apply list_ext. intros j. now rewrite Hn, nth_mapi_from.
Qed.

Lemma nth_upd_if {A} (l : list A) i a x j : nth_error l i = Some a ->
  nth_error (upd l i x) j = if j =? i then Some x else nth_error l j.
Proof.
  intros H. destruct (Nat.eqb_spec j i) as [->|Hne]; [exact (nth_upd_at l i a x H)|].
  apply nth_upd_other. congruence.
Qed.

Lemma nth_snoc_if {A} (l : list A) x j : nth_error (l ++ [x]) j = if j =? length l then Some x else nth_error l j.
Proof.
  revert j. induction l as [|a l IH]; intros [|j]; cbn; auto. now destruct j.
Qed.

Lemma nth_release (l : list cw) k j :
  nth_error (release l k) j =
    if j =? k then option_map (fun w => {| trig := trig w; released := true; cdropped := cdropped w; csent := csent w |}) (nth_error l j)
    else nth_error l j.
Proof.
  unfold release. destruct (nth_error l k) as [w|] eqn:Ek.
  - rewrite (nth_upd_if l k w _ j Ek). destruct (Nat.eqb_spec j k) as [->|Hne]; auto. now rewrite Ek.
  - destruct (Nat.eqb_spec j k) as [->|Hne]; auto. now rewrite Ek.
Qed.

Lemma pred_done_upd (l : list wr) i w w' j : nth_error l i = Some w ->
  pred_done (upd l i w') j = if j =? S i then dropped w' else pred_done l j.
Proof.
  intros Hi. destruct j as [|j]; [reflexivity|]. cbn [pred_done Nat.eqb]. rewrite (nth_upd_if l i w w' j Hi).
  now destruct (j =? i).
Qed.

Lemma pred_done_app (l : list wr) x j : j <= length l -> pred_done (l ++ [x]) j = pred_done l j.
Proof. intros Hj. destruct j as [|j]; cbn; auto. rewrite nth_error_app1 by lia. reflexivity. Qed.

Lemma cpred_dropped_abs s i : cpred_dropped (cws (abs s)) i = (0 <? i) && pred_done (ws s) i.
Proof.
  destruct i as [|i]; [reflexivity|]. change (0 <? S i) with true. cbn [cpred_dropped pred_done andb].
  rewrite nth_abs. now destruct (nth_error (ws s) i).
Qed.

Lemma wait_absw (l : list wr) i w :
  wait (absw l i w) =
    if can_go l i w then Some {| trig := false; released := false; cdropped := dropped w; csent := sent w |} else None.
Proof.
  unfold wait, absw, can_go. cbn [trig released cdropped csent].
  destruct i as [|i].
  - cbn. now rewrite orb_true_r.
  - change (0 <? S i) with true. cbn [andb]. destruct (turn w); cbn [negb orb andb].
    + now rewrite andb_false_r.
    + rewrite andb_true_r. destruct (pred_done l (S i)); reflexivity.
Qed.

Lemma abs_dropped s i w : nth_error (ws s) i = Some w ->
  nth_error (cws (abs s)) i = Some (absw (ws s) i w).
Proof. intros H. now rewrite nth_abs, H. Qed.

(* writer i, not dropped before or after, has the turn afterwards: only its own entry changes *)
Lemma take_turn_abs s i w sn strm : nth_error (ws s) i = Some w -> dropped w = false ->
  {| cws := upd (cws (abs s)) i {| trig := false; released := false; cdropped := false; csent := sn |}; cstream := strm |} =
  abs {| SeqWriter.ws := upd (ws s) i {| SeqWriter.turn := true; SeqWriter.dropped := false; SeqWriter.sent := sn |};
         SeqWriter.stream := strm |}.
Proof.
  intros Hi Hd. apply abs_intro; [reflexivity|]. intros j. cbn [cws ws].
  rewrite (nth_upd_if _ i _ _ j Hi), (nth_upd_if _ i _ _ j (abs_dropped s i w Hi)), nth_abs.
  destruct (Nat.eqb_spec j i) as [->|Hne].
  - cbn. unfold absw. cbn. now rewrite !andb_false_r.
  - destruct (nth_error (ws s) j) as [wj|]; cbn; auto.
    unfold absw. rewrite (pred_done_upd (ws s) i w _ j Hi). destruct (Nat.eqb_spec j (S i)) as [->|_]; [|reflexivity].
    cbn [pred_done SeqWriter.dropped]. now rewrite Hi, Hd.
Qed.

Theorem step_chan_abs s l : Inv s -> step_chan (abs s) l = option_map abs (step true s l).
Proof.
  intros HI. destruct l as [|i d|i|i].
  (* an operation of writer i: both systems refuse it unless the writer exists, is not dropped and may go *)
  2-4: cbn [step step_chan]; rewrite nth_abs; destruct (nth_error (ws s) i) as [w|] eqn:Ei; cbn [option_map]; auto.
  2-4: change (cdropped (absw (ws s) i w)) with (dropped w); destruct (dropped w) eqn:Ed; auto.
  2-4: rewrite wait_absw; cbn [negb orb]; destruct (can_go (ws s) i w) eqn:Eg; auto.
  2-4: cbn [option_map trig released csent]; f_equal.
  - cbn [step step_chan option_map]. f_equal. apply abs_intro; [reflexivity|]. intros j. cbn [cws ws].
    rewrite !nth_snoc_if, !abs_length, nth_abs.
    destruct (Nat.eqb_spec j (length (ws s))) as [->|Hne].
    + cbn [option_map]. f_equal.
      rewrite cpred_dropped_abs. unfold absw. cbn [SeqWriter.turn SeqWriter.dropped SeqWriter.sent negb].
      now rewrite pred_done_app, !andb_true_r.
    + destruct (nth_error (ws s) j) as [wj|] eqn:Ej; cbn; auto. unfold absw.
      rewrite pred_done_app; [reflexivity|]. apply Nat.lt_le_incl, nth_error_Some. congruence.
  - exact (take_turn_abs s i w _ _ Ei Ed).
  - exact (take_turn_abs s i w _ _ Ei Ed).
  - (* DropW: the entry of writer i changes likewise, and the follower (if any) finds the message in its channel;
       it has not had the turn, being behind an undropped writer *)
    rewrite orb_true_r. apply abs_intro; [reflexivity|]. intros j. cbn [cws ws].
    rewrite nth_release, (nth_upd_if _ i _ _ j Ei), (nth_upd_if _ i _ _ j (abs_dropped s i w Ei)), nth_abs.
    destruct (Nat.eqb_spec j (S i)) as [->|HnS].
    + destruct (Nat.eqb_spec (S i) i) as [Hbad|_]; [lia|].
      destruct (nth_error (ws s) (S i)) as [w1|] eqn:E1; cbn [option_map]; auto.
      destruct (undropped_after byte s i w HI Ei Ed (S i) w1 ltac:(lia) E1) as (Ht1 & _).
      unfold absw. now rewrite (pred_done_upd _ i w _ _ Ei), Nat.eqb_refl, Ht1.
    + destruct (Nat.eqb_spec j i) as [->|Hni].
      * cbn [option_map]. unfold absw. cbn. now rewrite !andb_false_r.
      * destruct (nth_error (ws s) j) as [wj|]; cbn [option_map]; auto.
        unfold absw. rewrite (pred_done_upd _ i w _ j Ei). now destruct (Nat.eqb_spec j (S i)).
Qed.

Theorem run_chan_abs ls : forall s, Inv s -> run_chan (abs s) ls = option_map abs (run true s ls).
Proof.
  induction ls as [|l ls IH]; intros s HI; cbn [run run_chan]; [reflexivity|].
  rewrite (step_chan_abs s l HI). destruct (step true s l) as [s1|] eqn:E; cbn [option_map]; [|reflexivity].
  apply IH. exact (step_inv byte s l s1 HI E).
Qed.

(* the explicit-channel system and the `can_go` system accept exactly the same label sequences from the initial
   state and reach related states, in particular the same stream *)
Theorem channel_refinement ls : run_chan cinit ls = option_map abs (run true init ls).
Proof. apply (run_chan_abs ls init). apply init_inv. Qed.

End Chan.
