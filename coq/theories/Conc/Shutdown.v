(* Conc/Shutdown.v — the accept thread and `impl Drop for Server` of src/lib.rs as a small interleaving
   transition system (C20, shutdown part). Connections are identified by natural numbers.

   Labels <-> code (src/lib.rs):
     LoopTest        the test `while !inside_close_trigger.load(Relaxed)` of the accept thread (l. 335).
                     Flag clear: the thread enters `server.accept()` (l. 336), modelled as in_accept := true.
                     Flag set: the loop ends, the closure returns: `server` (the listener) and `tasks_pool`
                     are dropped (l. 397-399: listener closed, TaskPool::drop = label PoolDrop of
                     Conc/TaskPool.v); connections still in the kernel backlog are reset.
     AcceptClient c  accept() returns the oldest client of the backlog (l. 337-365); it is wrapped in a
                     ClientConnection and given to `tasks_pool.spawn` (l. 369-389); back to the loop test.
     AcceptWake      accept() returns the self-connection made by Server::drop; it is dispatched exactly
                     like a client (its task reads end-of-stream and ends); back to the loop test.
     ServerDrop      Server::drop (l. 471-495): `close.store(true)`, connect to the own address (the
                     self-connection enters the backlog iff the listener still exists), remove the
                     UNIX-socket path (l. 488-493; vacuous for TCP listeners). Drop runs once.
     ClientConnect c a client's connection attempt: it enters the backlog iff the listener exists,
                     otherwise it is refused.
   Not modelled: accept() returning an error (l. 391-395: the loop ends as well, same exit transition);
   a failing self-connection (`if let Ok(stream)`); the Relaxed ordering of the flag (the model is
   sequentially consistent: the flag is seen at the next loop test); the order of the self-connection
   relative to clients in the backlog is left nondeterministic (a superset of the FIFO behaviours);
   for UNIX sockets clients are refused even earlier (from the path removal on).
   State: besides the flags, `backlog` (successful connection attempts not yet returned by accept) and
   `refused` (failed or reset attempts) make "refused" observable;
   `accepted` lists what was given to the task pool, in order (None = the self-connection). *)
From Coq Require Import List Arith Bool Lia.
Import ListNotations.

Definition conn := nat.

Record st := { closed : bool;          (* the close flag *)
               listening : bool;       (* the listener exists *)
               in_accept : bool;       (* the accept thread is blocked inside accept() *)
               backlog : list conn;
               accepted : list (option conn);
               refused : list conn;
               pending_wake : bool;    (* the self-connection is in the backlog *)
               pool_dropped : bool;
               path_removed : bool }.

Inductive label := LoopTest | AcceptClient (c : conn) | AcceptWake | ServerDrop | ClientConnect (c : conn).

Definition step (s : st) (l : label) : option st :=
  match l with
  | LoopTest =>
      if listening s && negb (in_accept s) then
        if closed s
        then Some {| closed := true; listening := false; in_accept := false; backlog := []; accepted := accepted s;
                     refused := refused s ++ backlog s; pending_wake := false; pool_dropped := true;
                     path_removed := path_removed s |}
        else Some {| closed := false; listening := true; in_accept := true; backlog := backlog s; accepted := accepted s;
                     refused := refused s; pending_wake := pending_wake s; pool_dropped := pool_dropped s;
                     path_removed := path_removed s |}
      else None
  | AcceptClient c =>
      if listening s && in_accept s then
        match backlog s with
        | c' :: rest => if Nat.eqb c c'
            then Some {| closed := closed s; listening := true; in_accept := false; backlog := rest;
                         accepted := accepted s ++ [Some c]; refused := refused s; pending_wake := pending_wake s;
                         pool_dropped := pool_dropped s; path_removed := path_removed s |}
            else None
        | [] => None end
      else None
  | AcceptWake =>
      if listening s && in_accept s && pending_wake s then
        Some {| closed := closed s; listening := true; in_accept := false; backlog := backlog s;
                accepted := accepted s ++ [None]; refused := refused s; pending_wake := false;
                pool_dropped := pool_dropped s; path_removed := path_removed s |}
      else None
  | ServerDrop =>
      if closed s then None else
        Some {| closed := true; listening := listening s; in_accept := in_accept s; backlog := backlog s;
                accepted := accepted s; refused := refused s; pending_wake := listening s;
                pool_dropped := pool_dropped s; path_removed := true |}
  | ClientConnect c =>
      if listening s
      then Some {| closed := closed s; listening := true; in_accept := in_accept s; backlog := backlog s ++ [c];
                   accepted := accepted s; refused := refused s; pending_wake := pending_wake s;
                   pool_dropped := pool_dropped s; path_removed := path_removed s |}
      else Some {| closed := closed s; listening := false; in_accept := in_accept s; backlog := backlog s;
                   accepted := accepted s; refused := refused s ++ [c]; pending_wake := pending_wake s;
                   pool_dropped := pool_dropped s; path_removed := path_removed s |}
  end.

Fixpoint run (s : st) (ls : list label) : option st :=
  match ls with [] => Some s | l :: ls' => match step s l with Some s' => run s' ls' | None => None end end.

Definition init : st :=
  {| closed := false; listening := true; in_accept := false; backlog := []; accepted := []; refused := [];
     pending_wake := false; pool_dropped := false; path_removed := false |}.

Definition is_accept (l : label) : bool := match l with AcceptClient _ | AcceptWake => true | _ => false end.
Definition is_accept_client (l : label) : bool := match l with AcceptClient _ => true | _ => false end.
Definition is_loop_step (l : label) : bool := match l with LoopTest | AcceptClient _ | AcceptWake => true | _ => false end.
Definition nb (f : label -> bool) (ls : list label) : nat := length (filter f ls).
Definition connects (ls : list label) : list conn := flat_map (fun l => match l with ClientConnect c => [c] | _ => [] end) ls.

Lemma nb_cons f l ls : nb f (l :: ls) = (if f l then 1 else 0) + nb f ls.
Proof. unfold nb; cbn. destruct (f l); reflexivity. Qed.
Lemma run_app s a b : run s (a ++ b) = match run s a with Some s' => run s' b | None => None end.
Proof. revert s. induction a as [|l a IH]; intros s; cbn; auto. destruct (step s l); auto. Qed.

Lemma run_preserves (P : st -> Prop) : (forall s l s', P s -> step s l = Some s' -> P s') ->
  forall ls s s', P s -> run s ls = Some s' -> P s'.
Proof.
  intros HP. induction ls as [|l ls IH]; cbn; intros s s' Hs H; [now injection H as <-|].
  destruct (step s l) as [s1|] eqn:E; [|discriminate]. eauto.
Qed.

(* one case analysis of a step, reused by all proofs *)
Ltac step_cases H s l :=
  destruct l as [|c| | |c]; cbn [step] in H;
  [ destruct (listening s) eqn:El; destruct (in_accept s) eqn:Ea; cbn [andb negb] in H; try discriminate;
    destruct (closed s) eqn:Ec; injection H as <-
  | destruct (listening s) eqn:El; destruct (in_accept s) eqn:Ea; cbn [andb negb] in H; try discriminate;
    destruct (backlog s) as [|c' rest] eqn:Eb; try discriminate; destruct (Nat.eqb c c') eqn:Ecc; try discriminate; injection H as <-
  | destruct (listening s) eqn:El; destruct (in_accept s) eqn:Ea; destruct (pending_wake s) eqn:Ep;
    cbn [andb negb] in H; try discriminate; injection H as <-
  | destruct (closed s) eqn:Ec; try discriminate; injection H as <-
  | destruct (listening s) eqn:El; injection H as <- ].

Lemma step_closed s l s' : step s l = Some s' -> closed s = true -> closed s' = true.
Proof. intros H Hc. step_cases H s l; cbn; congruence. Qed.
Lemma step_path s l s' : step s l = Some s' -> path_removed s = true -> path_removed s' = true.
Proof. intros H Hc. step_cases H s l; cbn; congruence. Qed.
Lemma run_path ls : forall s s', run s ls = Some s' -> path_removed s = true -> path_removed s' = true.
Proof.
  intros s s' H Hp.
  exact (run_preserves (fun s => path_removed s = true) (fun s1 l s2 Hp1 E => step_path s1 l s2 E Hp1) ls s s' Hp H).
Qed.

Theorem path_removed_after_drop s0 s1 ls s2 : step s0 ServerDrop = Some s1 -> run s1 ls = Some s2 -> path_removed s2 = true.
Proof.
  intros H R. apply (run_path ls s1 s2 R). cbn in H. destruct (closed s0); [discriminate|]. now injection H as <-.
Qed.

Lemma step_accepted s l s' : step s l = Some s' ->
  accepted s' = accepted s ++ match l with AcceptClient c => [Some c] | AcceptWake => [None] | _ => [] end.
Proof. intros H. step_cases H s l; cbn; rewrite ?app_nil_r; reflexivity. Qed.
Definition handed (ls : list label) : list (option conn) :=
  flat_map (fun l => match l with AcceptClient c => [Some c] | AcceptWake => [None] | _ => [] end) ls.
Theorem accepted_only_grows ls : forall s s', run s ls = Some s' -> accepted s' = accepted s ++ handed ls.
Proof.
  induction ls as [|l ls IH]; cbn; intros s s' H; [inversion H; subst; now rewrite app_nil_r|].
  destruct (step s l) eqn:E; [|discriminate]. rewrite (IH _ _ H), (step_accepted _ _ _ E), <- app_assoc. reflexivity.
Qed.
Theorem drop_and_exit_keep_accepted s l s' : step s l = Some s' -> l = ServerDrop \/ l = LoopTest -> accepted s' = accepted s.
Proof. intros H [->| ->]; rewrite (step_accepted _ _ _ H); apply app_nil_r. Qed.

Definition b2n (b : bool) : nat := if b then 1 else 0.

(* a potential m that every counted step lowers, once the flag is set, bounds the number of counted steps *)
Lemma nb_le_potential (f : label -> bool) (m : st -> nat) :
  (forall s l s', closed s = true -> step s l = Some s' -> b2n (f l) + m s' <= m s) ->
  forall ls s s', closed s = true -> run s ls = Some s' -> nb f ls <= m s.
Proof.
  intros Hm. induction ls as [|l ls IH]; intros s s' Hc H; [cbn; lia|]. cbn [run] in H.
  destruct (step s l) as [s1|] eqn:E; [|discriminate]. rewrite nb_cons.
  pose proof (IH _ _ (step_closed _ _ _ E Hc) H). pose proof (Hm _ _ _ Hc E). unfold b2n in *. lia.
Qed.

Lemma accepts_when_closed ls : forall s s', closed s = true -> run s ls = Some s' ->
  nb is_accept ls <= b2n (listening s && in_accept s).
Proof. apply nb_le_potential. intros s l s' Hc E. step_cases E s l; cbn; try lia; congruence. Qed.

Theorem accept_stops s0 s1 ls s2 : step s0 ServerDrop = Some s1 -> run s1 ls = Some s2 ->
  nb is_accept ls <= 1 /\ nb is_accept_client ls <= 1.
Proof.
  intros H R. assert (Hc : closed s1 = true) by (cbn in H; destruct (closed s0); [discriminate|inversion H; reflexivity]).
  pose proof (accepts_when_closed _ _ _ Hc R) as B.
  assert (nb is_accept_client ls <= nb is_accept ls).
  { clear. induction ls as [|l ls IH]; [cbn; lia|]. rewrite !nb_cons. destruct l; cbn; lia. }
  destruct (listening s1 && in_accept s1); cbn in B; lia.
Qed.

Theorem closed_listener_refuses ls : forall s s', listening s = false -> run s ls = Some s' ->
  listening s' = false /\ accepted s' = accepted s /\ backlog s' = backlog s /\ refused s' = refused s ++ connects ls.
Proof.
  induction ls as [|l ls IH]; cbn [run]; intros s s' Hl H; [inversion H; subst; cbn; now rewrite app_nil_r|].
  destruct (step s l) as [s1|] eqn:E; [|discriminate].
  assert (X : listening s1 = false /\ accepted s1 = accepted s /\ backlog s1 = backlog s /\
              refused s1 = refused s ++ match l with ClientConnect c => [c] | _ => [] end).
  { step_cases E s l; try congruence; cbn [listening accepted backlog refused]; rewrite ?app_nil_r; auto. }
  destruct X as (L1 & A1 & B1 & R1). destruct (IH _ _ L1 H) as (L2 & A2 & B2 & R2).
  repeat split; try congruence. rewrite R2, R1, <- app_assoc. reflexivity.
Qed.

(* the self-connection is pending whenever the thread sits in accept() with the flag set *)
Definition K (s : st) : Prop := closed s = true /\ (listening s = true -> in_accept s = true -> pending_wake s = true).

Lemma drop_K s0 s1 : step s0 ServerDrop = Some s1 -> K s1.
Proof. intros H. cbn in H. destruct (closed s0); [discriminate|]. inversion H; subst. unfold K; cbn. auto. Qed.
Lemma step_K s l s' : K s -> step s l = Some s' -> K s'.
Proof. intros [Hc Hw] H. unfold K. step_cases H s l; cbn in *; split; auto; try congruence. Qed.
Lemma run_K ls : forall s s', K s -> run s ls = Some s' -> K s'.
Proof. apply run_preserves. exact step_K. Qed.

Lemma loop_progress s : K s -> listening s = true ->
  exists l s', is_loop_step l = true /\ step s l = Some s'.
Proof.
  intros [Hc Hw] Hl. destruct (in_accept s) eqn:Ea.
  - exists AcceptWake. cbn. rewrite Hl, Ea, (Hw Hl eq_refl). cbn. eauto.
  - exists LoopTest. cbn. rewrite Hl, Ea, Hc. cbn. eauto.
Qed.
(* at most two more loop steps: (accept returns;) the loop test sees the flag *)
Lemma loop_steps_when_closed ls : forall s s', closed s = true -> run s ls = Some s' ->
  nb is_loop_step ls <= (if listening s then (if in_accept s then 2 else 1) else 0).
Proof.
  apply (nb_le_potential is_loop_step (fun s => if listening s then (if in_accept s then 2 else 1) else 0)).
  intros s l s' Hc E. step_cases E s l; cbn; try lia; congruence.
Qed.

Theorem loop_exits s0 s1 ls s2 : step s0 ServerDrop = Some s1 -> run s1 ls = Some s2 ->
  (* bound: at most two loop steps happen after the drop, whatever the schedule *)
  nb is_loop_step ls <= 2 /\
  (* progress: while the listener exists a loop step is enabled *)
  (listening s2 = true -> exists l s3, is_loop_step l = true /\ step s2 l = Some s3) /\
  (* hence a schedule of at most two loop steps closes the listener and drops the pool *)
  (exists ls' s3, length ls' <= 2 /\ Forall (fun l => is_loop_step l = true) ls' /\ run s2 ls' = Some s3 /\
                  listening s3 = false /\ (listening s2 = true -> pool_dropped s3 = true)).
Proof.
  intros H R. pose proof (drop_K _ _ H) as K1. pose proof (run_K _ _ _ K1 R) as K2. split; [|split].
  - pose proof (loop_steps_when_closed _ _ _ (proj1 K1) R) as B. destruct (listening s1), (in_accept s1); lia.
  - intros Hl. now apply loop_progress.
  - destruct K2 as [Hc Hw]. destruct (listening s2) eqn:El.
    + destruct (in_accept s2) eqn:Ea.
      * eexists [AcceptWake; LoopTest], _. split; [cbn; lia|]. split; [repeat constructor|].
        cbn. rewrite El, Ea, (Hw eq_refl eq_refl), Hc. cbn. auto.
      * eexists [LoopTest], _. split; [cbn; lia|]. split; [repeat constructor|].
        cbn. rewrite El, Ea, Hc. cbn. auto.
    + exists [], s2. split; [cbn; lia|]. split; [constructor|]. cbn. split; auto. split; auto. discriminate.
Qed.

(* reachable states: the pool is dropped exactly when the listener is closed, which needs the flag *)
Definition R (s : st) : Prop :=
  pool_dropped s = negb (listening s) /\ (listening s = false -> closed s = true /\ backlog s = [] /\ in_accept s = false) /\
  (path_removed s = closed s).
Lemma step_R s l s' : R s -> step s l = Some s' -> R s'.
Proof. intros (R1 & R2 & R3) H. unfold R. step_cases H s l; cbn in *; repeat split; auto; try congruence; try (apply R2; auto). Qed.
Theorem run_R ls s : run init ls = Some s -> R s.
Proof. apply (run_preserves R step_R). unfold R, init; cbn. repeat split; auto; discriminate. Qed.
