(* Props/C07Glue.v — C07 / C17 at the level of the server API glue (src/lib.rs): Server::recv = pop,
   recv_timeout = pop_timeout, try_recv = try_pop, incoming_requests = repeated recv, unblock = unblock; each
   connection's worker pushes its requests in wire order.  Each statement in a few lines from Conc/MsgQueueFacts.v and
   Conc/MsgQueueCalls.v, on top of the invariants of Conc/MsgQueue.v.  All label sequences, any number of receivers,
   any mix of calls, spurious wake-ups, time-outs, passage of time; MS, EPS arbitrary.

   The observers are defined OUTSIDE the model by replaying the run:
     deliveries fixed s ls   = the list of (receiver, value) such that a step of that receiver (CallPop / CallTry /
                               CallTimed / Resume) made `got` grow by that value;
     token_returns fixed s i ls = the list of (position in ls, receiver) such that a step of that receiver made
                               `tokrets` grow (the call returned empty-handed BY A TOKEN);
     call_of ls (i, t)       = (t, number of Call labels of t among the first i+1 labels): the identity of the call. *)
From Coq Require Import List Arith Lia.
Import ListNotations.
From TH Require Import Conc.MsgQueue Conc.MsgQueueFacts Conc.MsgQueueCalls.

(* the receiver-tagged log is exactly the global hand-out order; with FIFO-exactly-once: the log followed by the
   queued requests is the list of pushed requests *)
Theorem c07_log_is_got :
  forall (V : Type) (MS : nat), 0 < MS -> forall (EPS : nat) (fixed : bool) (n : nat) (ls : list (label V)) (s : st V),
    run V MS EPS fixed (init V n) ls = Some s ->
    exists log, deliveries V MS EPS fixed (init V n) ls = Some log /\
      map snd log = got V s /\ map snd log ++ elems V (q V s) = pushed V s.
Proof.
  intros V MS HMS EPS fixed n ls s H. destruct (deliveries_got V MS EPS fixed ls _ _ H) as (log & Hd & _).
  exists log. split; [exact Hd|]. exact (log_is_got V MS HMS EPS fixed n ls s log H Hd).
Qed.
Print Assumptions c07_log_is_got.

(* every pushed request is in the log or still queued; if the pushed requests are pairwise distinct, no request is
   handed out twice, none to two receivers, and none that was handed out is still queued *)
Theorem c07_exactly_one_receiver :
  forall (V : Type) (MS : nat), 0 < MS -> forall (EPS : nat) (fixed : bool) (n : nat) (ls : list (label V)) (s : st V)
         (log : list (nat * V)),
    run V MS EPS fixed (init V n) ls = Some s -> deliveries V MS EPS fixed (init V n) ls = Some log ->
    (forall v, In v (pushed V s) <-> In v (map snd log) \/ In v (elems V (q V s))) /\
    (NoDup (pushed V s) ->
       NoDup (map snd log) /\ NoDup log /\
       (forall t1 t2 v, In (t1, v) log -> In (t2, v) log -> t1 = t2) /\
       (forall v, In v (map snd log) -> ~ In v (elems V (q V s)))).
Proof.
  intros V MS HMS EPS fixed n ls s log H Hd. destruct (log_is_got V MS HMS EPS fixed n ls s log H Hd) as [_ Heq]. split.
  - intros v. rewrite <- Heq. apply in_app_iff.
  - intros ND. rewrite <- Heq in ND. destruct (NoDup_app_split _ _ ND) as [ND1 Hdis]. repeat split.
    + exact ND1.
    + exact (NoDup_map_inv _ _ ND1).
    + intros t1 t2 v. apply NoDup_map_snd_inj; auto.
    + exact Hdis.
Qed.
Print Assumptions c07_exactly_one_receiver.

(* one receiver obtains its requests in push order: what receiver t got is a subsequence of what was pushed *)
Theorem c07_single_receiver_sees_push_order :
  forall (V : Type) (MS : nat), 0 < MS -> forall (EPS : nat) (fixed : bool) (n : nat) (ls : list (label V)) (s : st V)
         (log : list (nat * V)) (t : nat),
    run V MS EPS fixed (init V n) ls = Some s -> deliveries V MS EPS fixed (init V n) ls = Some log ->
    subseq (map snd (filter (fun e => fst e =? t) log)) (pushed V s).
Proof.
  intros V MS HMS EPS fixed n ls s log t H Hd. destruct (log_is_got V MS HMS EPS fixed n ls s log H Hd) as [_ Heq].
  rewrite <- Heq. apply subseq_app_r, subseq_map, subseq_filter.
Qed.
Print Assumptions c07_single_receiver_sees_push_order.

(* connections: conn v = the connection request v arrived on. The requests of connection c that receiver t obtained
   are, in the order t obtained them, a subsequence of the requests of c in push order; hence, if connection c's
   worker pushes the requests vs in wire order (what it has pushed so far is a prefix of vs), a subsequence of vs —
   whatever other connections, receivers, unblocks and time-outs do *)
Theorem c07_connection_order_at_one_receiver :
  forall (V : Type) (MS : nat), 0 < MS -> forall (EPS : nat) (fixed : bool) (n : nat) (ls : list (label V)) (s : st V)
         (log : list (nat * V)) (t : nat) (conn : V -> nat) (c : nat),
    run V MS EPS fixed (init V n) ls = Some s -> deliveries V MS EPS fixed (init V n) ls = Some log ->
    let mine := filter (fun v => conn v =? c) (map snd (filter (fun e => fst e =? t) log)) in
    subseq mine (filter (fun v => conn v =? c) (pushed V s)) /\
    (forall vs rest, filter (fun v => conn v =? c) (pushed V s) ++ rest = vs -> subseq mine vs).
Proof.
  intros V MS HMS EPS fixed n ls s log t conn c H Hd mine.
  pose proof (c07_single_receiver_sees_push_order V MS HMS EPS fixed n ls s log t H Hd) as Hs.
  assert (S1 : subseq mine (filter (fun v => conn v =? c) (pushed V s))) by (apply subseq_filter_mono; exact Hs).
  split; [exact S1|]. intros vs rest <-. apply subseq_app_r. exact S1.
Qed.
Print Assumptions c07_connection_order_at_one_receiver.

(* the pushed list is the sequence of values of the Push labels of the run (so "pushed in wire order" is a statement
   about the labels, i.e. about what the connection workers do) *)
Theorem c07_pushed_is_push_labels :
  forall (V : Type) (MS : nat), 0 < MS -> forall (EPS : nat) (fixed : bool) (n : nat) (ls : list (label V)) (s : st V),
    run V MS EPS fixed (init V n) ls = Some s -> pushed V s = flat_map (pushes V) ls.
Proof. intros V MS HMS EPS fixed n ls s H. exact (proj1 (run_frame V MS HMS EPS fixed ls _ _ H)). Qed.
Print Assumptions c07_pushed_is_push_labels.

(* C17: the calls released by a token, plus the tokens still queued, are as many as the Unblock labels of the
   run; the log entries are distinct steps of the run ... *)
Theorem c17_each_token_releases_exactly_one_call :
  forall (V : Type) (MS : nat), 0 < MS -> forall (EPS : nat) (fixed : bool) (n : nat) (ls : list (label V)) (s : st V),
    run V MS EPS fixed (init V n) ls = Some s ->
    exists log, token_returns V MS EPS fixed (init V n) 0 ls = Some log /\
      length log = tokrets V s /\
      length log + ntok V (q V s) = length (filter (is_unblock V) ls) /\
      NoDup (map fst log) /\
      Forall (fun e => fst e < length ls) log.
Proof.
  intros V MS HMS EPS fixed n ls s H.
  destruct (token_returns_tokrets V MS HMS EPS fixed ls _ 0 _ H) as (log & Hd & Hg & Hs).
  exists log. cbn in Hg. repeat split; auto.
  - pose proof (proj2 (fifo_exactly_once V MS HMS EPS fixed n ls s H)) as Hc.
    rewrite (proj2 (run_frame V MS HMS EPS fixed _ _ _ H)) in Hc. cbn in Hc. lia.
  - eapply Forall_impl; [|exact (token_returns_actor V MS HMS EPS _ _ _ _ _ Hd)]. cbn.
    intros e (j & l & -> & Hn & _). apply nth_error_Some. cbn. congruence.
Qed.
Print Assumptions c17_each_token_releases_exactly_one_call.

(* ... each entry (i, t) is a step of receiver t (label number i of the run is CallPop t, CallTry t, CallTimed t _ or
   Resume t) ... *)
Theorem c17_token_log_sound :
  forall (V : Type) (MS : nat), 0 < MS -> forall (EPS : nat) (fixed : bool) (n : nat) (ls : list (label V)) (log : list (nat * nat)),
    token_returns V MS EPS fixed (init V n) 0 ls = Some log ->
    Forall (fun e => exists l, nth_error ls (fst e) = Some l /\ actor V l = Some (snd e)) log.
Proof.
  intros V MS HMS EPS fixed n ls log Hd. eapply Forall_impl; [|exact (token_returns_actor V MS HMS EPS _ _ _ _ _ Hd)]. cbn.
  intros e (j & l & -> & H). eauto.
Qed.
Print Assumptions c17_token_log_sound.

(* ... and the released calls are pairwise DISTINCT calls: (receiver, ordinal of the call of that receiver) never
   repeats, so n consumed tokens have released n different calls *)
Theorem c17_released_calls_are_distinct :
  forall (V : Type) (MS : nat), 0 < MS -> forall (EPS : nat) (fixed : bool) (n : nat) (ls : list (label V)) (s : st V) (log : list (nat * nat)),
    run V MS EPS fixed (init V n) ls = Some s -> token_returns V MS EPS fixed (init V n) 0 ls = Some log ->
    NoDup (map (call_of V ls) log).
Proof.
  intros V MS HMS EPS fixed n ls s log H Hd. apply (run_K V MS HMS EPS fixed ls [] (init V n) [] s log); auto.
  - intros t k [].
  - constructor.
Qed.
Print Assumptions c17_released_calls_are_distinct.

(* "no request stays queued while a receiver remains blocked" (repaired queue), as a liveness statement.
   In every reachable state where the head of the queue is a request v and some receiver is blocked or awake, there
   is a receiver that is ALREADY awake and whose next step hands out exactly v ... *)
Theorem c07_blocked_head_served :
  forall (V : Type) (MS : nat), 0 < MS -> forall (EPS : nat) (n : nat) (ls : list (label V)) (s : st V) (v : V) (q' : list (item V)),
    run V MS EPS true (init V n) ls = Some s -> q V s = Elem V v :: q' ->
    (0 < count is_blocked (rs V s) \/ 0 < count is_woken (rs V s)) ->
    exists t s', (exists r, nth_error (rs V s) t = Some r /\ is_woken r = true) /\
      step V MS EPS true s (Resume V t) = Some s' /\
      got V s' = got V s ++ [v] /\ q V s' = q' /\ nth_error (rs V s') t = Some Idle.
Proof.
  intros V MS HMS EPS n ls s v q' H Hq Hsome. pose proof (no_lost_wakeup V MS HMS EPS n ls s H) as HB.
  assert (Hw : 0 < count is_woken (rs V s)).
  { destruct Hsome as [Hb|Hw]; [|exact Hw]. specialize (HB Hb). rewrite Hq in HB. cbn in HB. lia. }
  destruct (count_pos_nth MS HMS _ _ Hw) as (t & r & Hn & Hr).
  destruct (resume_woken V MS EPS s t r Hn Hr) as (s' & Hs & Ht); [rewrite Hq; discriminate|].
  exists t, s'. split; [exists r; auto|]. split; [exact Hs|].
  destruct (take_ret_cases V _ _ _ Ht) as (x & Hq' & Hg & _ & Hrs & _). rewrite Hq in Hq'. injection Hq' as <- ->.
  repeat split; auto. rewrite Hrs. eapply nth_upd_same; eauto.
Qed.
Print Assumptions c07_blocked_head_served.

(* ... and in every reachable state where some receiver is blocked, a schedule consisting ONLY of Resume steps of
   receivers that are already awake in that state (no Push, Unblock, Tick, Timeout, Spurious, no new call), one per
   queued item, empties the queue: every queued request is handed out, in order, every queued token is consumed *)
Theorem c07_blocked_receivers_get_served :
  forall (V : Type) (MS : nat), 0 < MS -> forall (EPS : nat) (n : nat) (ls : list (label V)) (s : st V),
    run V MS EPS true (init V n) ls = Some s -> 0 < count is_blocked (rs V s) ->
    exists ts s', run V MS EPS true s (map (Resume V) ts) = Some s' /\
      Forall (fun t => exists r, nth_error (rs V s) t = Some r /\ is_woken r = true) ts /\
      length ts = length (q V s) /\
      q V s' = [] /\ got V s' = got V s ++ elems V (q V s) /\ tokrets V s' = tokrets V s + ntok V (q V s) /\
      pushed V s' = pushed V s /\ unblocks V s' = unblocks V s /\ now V s' = now V s.
Proof.
  intros V MS HMS EPS n ls s H Hb. apply (woken_drain V MS HMS EPS (length (q V s))); [reflexivity|].
  exact (no_lost_wakeup V MS HMS EPS n ls s H Hb).
Qed.
Print Assumptions c07_blocked_receivers_get_served.

(* two connections (1: 101 102 103, 2: 201 202 203) pushed interleaved, two receivers, one unblock; receiver 1 barges
   in front of the woken receiver 0 *)
Definition ex_conn (v : nat) : nat := v / 100.
Definition ex_ls : list (label nat) :=
  [CallPop nat 0; Push nat 101 (Some 0); Push nat 201 None; CallTry nat 1; Resume nat 0;
   Push nat 102 None; Push nat 202 None; Unblock nat None; Push nat 103 None;
   CallPop nat 0; CallTimed nat 1 50; CallPop nat 0; CallPop nat 0; Push nat 203 None].

Example c07glue_example_run :
  match run nat 10 5 true (init nat 2) ex_ls with
  | Some s => pushed nat s = [101; 201; 102; 202; 103; 203] /\ got nat s = [101; 201; 102; 202; 103] /\
              q nat s = [Elem nat 203] /\ tokrets nat s = 1 /\ unblocks nat s = 1
  | None => False
  end.
Proof. vm_compute. repeat split; reflexivity. Qed.

Example c07glue_example_log :
  deliveries nat 10 5 true (init nat 2) ex_ls = Some [(1, 101); (0, 201); (0, 102); (1, 202); (0, 103)].
Proof. vm_compute. reflexivity. Qed.

(* the hypotheses of c07_exactly_one_receiver hold (pushed values distinct) *)
Example c07glue_example_nodup : NoDup [101; 201; 102; 202; 103; 203].
Proof. repeat (constructor; [cbn; intuition discriminate|]). constructor. Qed.

(* what receiver 0 saw of connection 1 and of connection 2; connection 1 pushes vs = 101 102 103 104 in wire order and
   has pushed the prefix 101 102 103 so far (hypothesis of c07_connection_order_at_one_receiver with rest = [104]) *)
Example c07glue_example_conn :
  let log := [(1, 101); (0, 201); (0, 102); (1, 202); (0, 103)] in
  filter (fun v => ex_conn v =? 1) (map snd (filter (fun e => fst e =? 0) log)) = [102; 103] /\
  filter (fun v => ex_conn v =? 2) (map snd (filter (fun e => fst e =? 0) log)) = [201] /\
  filter (fun v => ex_conn v =? 1) (map snd (filter (fun e => fst e =? 1) log)) = [101] /\
  filter (fun v => ex_conn v =? 1) [101; 201; 102; 202; 103; 203] ++ [104] = [101; 102; 103; 104].
Proof. vm_compute. repeat split; reflexivity. Qed.

(* the token log: label number 11 (the third call of receiver 0) was released by the one token *)
Example c07glue_example_tokens :
  token_returns nat 10 5 true (init nat 2) 0 ex_ls = Some [(11, 0)] /\
  map (call_of nat ex_ls) [(11, 0)] = [(0, 3)] /\
  length (filter (is_unblock nat) ex_ls) = 1.
Proof. vm_compute. repeat split; reflexivity. Qed.

(* liveness hypotheses are satisfiable: receiver 2 is blocked, 7 and 8 are queued, receivers 0 and 1 are awake; their
   two Resume steps alone hand out 7 and 8 *)
Example c07glue_example_liveness :
  match run nat 10 5 true (init nat 3)
          [CallPop nat 0; CallPop nat 1; CallTimed nat 2 300; Push nat 7 (Some 0); Push nat 8 (Some 1)] with
  | Some s => 0 < count is_blocked (rs nat s) /\ q nat s = [Elem nat 7; Elem nat 8] /\
              match run nat 10 5 true s (map (Resume nat) [0; 1]) with
              | Some s' => got nat s' = [7; 8] /\ q nat s' = []
              | None => False end
  | None => False
  end.
Proof. vm_compute. repeat split; reflexivity. Qed.
