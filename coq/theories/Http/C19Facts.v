(* Http/C19Facts.v — add_header's incremental policy equals the declarative `keep`; what keep_ct does to
   the headers, from which Props/C19.v reads off what `keep` guarantees. *)
From TH Require Import Base.Bytes Base.BytesFacts Http.Response Http.C19Spec Http.ResponseFacts.

(* the header-list part of add_header *)
Definition add_hl (l : list header) (h : header) : list header :=
  if unsendable h then l
  else if is_ct h && existsb is_ct l then replace_first_ct (hvalue h) l
  else l ++ [h].

Lemma unsendable_split h : unsendable h = forbidden h || equiv "Content-Length" h.
Proof. reflexivity. Qed.

Lemma add_header_headers r h : rheaders (add_header r h) = add_hl (rheaders r) h.
Proof.
  unfold add_header, add_hl. rewrite unsendable_split.
  destruct (forbidden h); [reflexivity|]. cbn [orb].
  destruct (equiv "Content-Length" h).
  - destruct (parse_usize (hvalue h)); reflexivity.
  - unfold is_ct. destruct (equiv "Content-Type" h && existsb (equiv "Content-Type") (rheaders r)); reflexivity.
Qed.

Lemma apply_rop_headers r o :
  rheaders (apply_rop r o) = match o with WithHeader h => add_hl (rheaders r) h | _ => rheaders r end.
Proof. destruct o; cbn [apply_rop rheaders]; auto using add_header_headers. Qed.

Lemma fold_add_header_headers hs r :
  rheaders (fold_left add_header hs r) = fold_left add_hl hs (rheaders r).
Proof. revert r; induction hs as [|h t IH]; intros r; cbn [fold_left]; [reflexivity|]. now rewrite IH, add_header_headers. Qed.

Lemma build_headers ops r :
  rheaders (build r ops) =
  fold_left add_hl (flat_map (fun o => match o with WithHeader h => [h] | _ => [] end) ops) (rheaders r).
Proof.
  unfold build. revert r; induction ops as [|o t IH]; intros r; cbn [fold_left flat_map]; [reflexivity|].
  rewrite IH, apply_rop_headers. destruct o; cbn [app fold_left]; reflexivity.
Qed.

Theorem built_headers st hs b dl ops :
  rheaders (build (new_response st hs b dl) ops) = fold_left add_hl (supplied_of hs ops) [].
Proof.
  rewrite build_headers. unfold new_response, supplied_of.
  now rewrite fold_add_header_headers, fold_left_app.
Qed.

Lemma is_ct_name x v : is_ct (mkH (hname x) v) = is_ct x.
Proof. reflexivity. Qed.

Lemma keep_ct_no_ct v c : existsb is_ct c = false -> keep_ct v c = c.
Proof.
  induction c as [|h t IH]; cbn [existsb keep_ct]; [reflexivity|].
  destruct (is_ct h); cbn [orb]; [discriminate|]. intros H. now rewrite IH.
Qed.

Lemma keep_ct_snoc v c h :
  keep_ct v (c ++ [h]) =
  if existsb is_ct c then keep_ct v c ++ (if is_ct h then [] else [h])
  else c ++ (if is_ct h then [mkH (hname h) v] else [h]).
Proof.
  induction c as [|x t IH]; cbn [app keep_ct existsb].
  - destruct (is_ct h); reflexivity.
  - destruct (is_ct x); cbn [orb].
    + unfold drop_ct. rewrite filter_app. cbn [filter]. destruct (is_ct h); cbn [negb app]; rewrite ?app_nil_r; reflexivity.
    + rewrite IH. destruct (existsb is_ct t); reflexivity.
Qed.

Lemma replace_keep_ct v v' c : existsb is_ct c = true -> replace_first_ct v' (keep_ct v c) = keep_ct v' c.
Proof.
  induction c as [|x t IH]; cbn [existsb keep_ct]; [discriminate|]. fold is_ct in *.
  destruct (is_ct x) eqn:E; cbn [orb replace_first_ct]; fold is_ct; rewrite ?is_ct_name, E; [reflexivity|].
  intros H. now rewrite IH.
Qed.

Lemma existsb_keep_ct v c : existsb is_ct (keep_ct v c) = existsb is_ct c.
Proof.
  induction c as [|x t IH]; cbn [keep_ct existsb]; [reflexivity|].
  destruct (is_ct x) eqn:E; cbn [existsb]; rewrite ?is_ct_name, E; [reflexivity|]. now rewrite IH.
Qed.

(* `keep` always runs keep_ct, with the value of the last Content-Type if there is one *)
Lemma keep_eq supplied :
  let c := filter (fun h => negb (unsendable h)) supplied in
  keep supplied = keep_ct (match rev (filter is_ct c) with [] => [] | l :: _ => hvalue l end) c.
Proof.
  intros c. unfold keep. fold c. destruct (rev (filter is_ct c)) eqn:E; [|reflexivity].
  symmetry. apply keep_ct_no_ct, existsb_filter_nil. apply (f_equal (@rev _)) in E. now rewrite rev_involutive in E.
Qed.

Lemma header_eta h : mkH (hname h) (hvalue h) = h.
Proof. now destruct h. Qed.

Theorem add_hl_is_keep supplied : fold_left add_hl supplied [] = keep supplied.
Proof.
  induction supplied as [|h hs IH] using rev_ind; [reflexivity|].
  rewrite fold_left_app. cbn [fold_left]. rewrite IH, !keep_eq. cbv zeta. rewrite filter_app. cbn [filter].
  unfold add_hl. destruct (unsendable h); cbn [negb]; [now rewrite app_nil_r|].
  set (c := filter _ hs). rewrite existsb_keep_ct, filter_app, rev_app_distr, keep_ct_snoc. cbn [filter].
  destruct (is_ct h), (existsb is_ct c) eqn:Ex; cbn [rev app andb]; rewrite ?app_nil_r.
  - now apply replace_keep_ct.
  - now rewrite keep_ct_no_ct, header_eta.
  - reflexivity.
  - now rewrite keep_ct_no_ct.
Qed.

Lemma drop_ct_keep_ct v c : drop_ct (keep_ct v c) = drop_ct c.
Proof.
  unfold drop_ct. induction c as [|x t IH]; cbn [keep_ct]; [reflexivity|].
  destruct (is_ct x) eqn:E; cbn [filter]; rewrite ?is_ct_name, E; cbn [negb]; [|now rewrite IH].
  unfold drop_ct. rewrite filter_filter. apply filter_ext. intros y. now destruct (is_ct y).
Qed.

Lemma keep_ct_unsendable v c :
  Forall (fun h => unsendable h = false) c -> Forall (fun h => unsendable h = false) (keep_ct v c).
Proof.
  induction 1 as [|x t Hx Ht IH]; cbn [keep_ct]; [constructor|]. destruct (is_ct x); constructor; auto.
  apply Forall_forall. intros y Hy. apply filter_In in Hy as [Hy _]. rewrite Forall_forall in Ht. auto.
Qed.

Lemma filter_ct_drop_ct t : filter is_ct (drop_ct t) = [].
Proof.
  unfold drop_ct. induction t as [|y u IH]; cbn [filter]; [reflexivity|].
  destruct (is_ct y) eqn:E; cbn [negb filter]; rewrite ?E; exact IH.
Qed.

Lemma keep_ct_one v c : existsb is_ct c = true -> map hvalue (filter is_ct (keep_ct v c)) = [v].
Proof.
  induction c as [|x t IH]; cbn [existsb keep_ct]; [discriminate|].
  destruct (is_ct x) eqn:E; cbn [orb filter]; rewrite ?is_ct_name, E; [intros _|exact IH].
  now rewrite filter_ct_drop_ct.
Qed.
