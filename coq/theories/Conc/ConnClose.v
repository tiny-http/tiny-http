(* Conc/ConnClose.v — WHEN the server closes its sending side of a connection (C12, closing clause).
   Conc/SeqWriter.v (the chain of response writers of src/util/sequential.rs) wrapped with the ownership of the
   shared sink: `ClientConnection::new` (src/client.rs:51-69) builds
       sink: SequentialWriterBuilder::new(BufWriter::with_capacity(1024, write_socket))
   `SequentialWriterBuilder { writer: Arc<Mutex<W>>, .. }` (sequential.rs:51-57) holds one handle of the Arc and every
   `SequentialWriter` a clone of it (sequential.rs:116). The Mutex<BufWriter<RefinedTcpStream>> is dropped exactly when
   the LAST handle is released: BufWriter::drop flushes the buffer, then the field `inner : RefinedTcpStream` is
   dropped, whose `impl Drop` (src/util/refined_tcp_stream.rs:162-172) calls `shutdown(Shutdown::Write)` for the half
   created with `close_write: true` (refined_tcp_stream.rs:142-146): the client sees end-of-stream.

   State  : sw            the state of Conc/SeqWriter.v (writers with turn/dropped/sent; `stream` = all bytes handed
                          to the BufWriter so far)
            builder_alive the ClientConnection (field `sink`) still exists: the connection thread is still in
                          `for rq in client` (src/lib.rs:378-385)
            wr_closed     shutdown(Write) has happened
            buffered/wire the contents of the BufWriter's buffer / the bytes given to the socket
   handles s = Arc::strong_count = (1 if builder_alive) + number of undropped writers.

   Labels <-> code:
     CL New          SequentialWriterBuilder::next (client.rs:140, 192, 202, 211, 220): only the connection thread owns
                     the builder, hence enabled only while builder_alive
     CL (Write i d)  SequentialWriter::write (sequential.rs:137-144), then BufWriter::write on the shared sink
                     (std: fewer bytes than the spare room are copied into the buffer; otherwise the buffer is flushed
                      first unless d fits exactly, and d goes straight to the socket if length d >= capacity, else
                      into the buffer) = bw_write
     CL (Flush i)    SequentialWriter::flush (sequential.rs:146-153), BufWriter::flush: buffer -> socket
     CL (DropW i)    Drop for SequentialWriter (sequential.rs:176-188) followed by the drop of its fields, among them
                     its Arc handle; if it was the last one: BufWriter::drop (flush), shutdown(Write)   (= release)
     BuilderDrop     the connection thread ends: the iterator ClientConnection::next returned None (client closed:
                     client.rs:226; timed out: 216; a last request was seen: no_more_requests, 185-187; a refusal:
                     client.rs:197, 205, 223) and `client` is dropped, with it `sink` and its Arc handle; if it was
                     the last one: flush, shutdown(Write)
   Abstractions: DropW i is atomic (in the code the successor is released by `on_finish.send` a moment before the
   Arc handle goes; the close still happens at the last release whichever writer performs it); Write i d transfers
   all of d (a short write is the label with the accepted prefix); I/O errors are not modelled.
   `cap` is the BufWriter capacity (1024 in the code); every theorem holds for every capacity and for arbitrary label
   sequences; fixed = true is the repaired tree. *)
From Coq Require Import List Arith Lia.
Import ListNotations.
From TH Require Import Conc.SeqWriter Conc.SeqWriterFacts.

Local Arguments dropped {byte}.
Local Arguments sent {byte}.
Local Arguments ws {byte}.
Local Arguments stream {byte}.
Local Arguments New {byte}.
Local Arguments Write {byte}.
Local Arguments Flush {byte}.
Local Arguments DropW {byte}.
Local Arguments step {byte}.
Local Arguments run {byte}.
Local Arguments init {byte}.
Local Arguments Inv {byte}.
Local Arguments least_undropped {byte}.
Local Arguments drop_from {byte}.
Local Arguments arrival {byte}.
Local Arguments data {byte}.
Local Arguments is_new {byte}.
Local Arguments label_index {byte}.
Local Arguments wdata {byte}.
Local Arguments reachable {byte}.

Section ConnClose.
Variable byte : Type.
Variable cap : nat.
Notation bytes := (list byte).
Notation wr := (SeqWriter.wr byte).
Notation st := (SeqWriter.st byte).
Notation label := (SeqWriter.label byte).

Record cst := { sw : st; builder_alive : bool; wr_closed : bool; buffered : bytes; wire : bytes }.

Inductive clabel := CL (l : label) | BuilderDrop.

(* BufWriter::write / write_cold; result = (new buffer, new wire) *)
Definition bw_write (buf w d : bytes) : bytes * bytes :=
  let spare := cap - length buf in
  if length d <? spare then (buf ++ d, w)
  else
    let bw1 := if spare <? length d then ([], w ++ buf) else (buf, w) in
    if cap <=? length d then (fst bw1, snd bw1 ++ d) else (fst bw1 ++ d, snd bw1).

Definition undropped (l : list wr) : nat := length (filter (fun w => negb (dropped w)) l).

(* Arc::strong_count of the shared sink *)
Definition handles (s : cst) : nat := (if builder_alive s then 1 else 0) + undropped (ws (sw s)).

(* s = the state just after a handle was given up: the last one takes the BufWriter and the socket half with it *)
Definition release (s : cst) : cst :=
  if handles s =? 0 then
    {| sw := sw s; builder_alive := builder_alive s; wr_closed := true; buffered := []; wire := wire s ++ buffered s |}
  else s.

Definition with_sw (s : cst) (t : st) : cst :=
  {| sw := t; builder_alive := builder_alive s; wr_closed := wr_closed s; buffered := buffered s; wire := wire s |}.

Definition cstep (fixed : bool) (s : cst) (l : clabel) : option cst :=
  match l with
  | BuilderDrop =>
      if builder_alive s then
        Some (release {| sw := sw s; builder_alive := false; wr_closed := wr_closed s;
                         buffered := buffered s; wire := wire s |})
      else None
  | CL l0 =>
      match l0 with
      | New =>
          if builder_alive s then option_map (with_sw s) (step fixed (sw s) l0) else None
      | Write i d =>
          match step fixed (sw s) l0 with
          | Some t => let bw := bw_write (buffered s) (wire s) d in
                      Some {| sw := t; builder_alive := builder_alive s; wr_closed := wr_closed s;
                              buffered := fst bw; wire := snd bw |}
          | None => None end
      | Flush i =>
          match step fixed (sw s) l0 with
          | Some t => Some {| sw := t; builder_alive := builder_alive s; wr_closed := wr_closed s;
                              buffered := []; wire := wire s ++ buffered s |}
          | None => None end
      | DropW i =>
          match step fixed (sw s) l0 with
          | Some t => Some (release (with_sw s t))
          | None => None end
      end
  end.

Fixpoint crun (fixed : bool) (s : cst) (ls : list clabel) : option cst :=
  match ls with [] => Some s | l :: ls' => match cstep fixed s l with Some s' => crun fixed s' ls' | None => None end end.

Definition cinit : cst := {| sw := init; builder_alive := true; wr_closed := false; buffered := []; wire := [] |}.

Definition creachable (s : cst) : Prop := exists ls, crun true cinit ls = Some s.

(* the labels of the underlying writer chain *)
Definition proj (ls : list clabel) : list label :=
  flat_map (fun l => match l with CL l0 => [l0] | BuilderDrop => [] end) ls.

Lemma bw_write_spec buf w d :
  snd (bw_write buf w d) ++ fst (bw_write buf w d) = (w ++ buf) ++ d /\
  (exists x, snd (bw_write buf w d) = w ++ x) /\
  (length buf <= cap -> length (fst (bw_write buf w d)) <= cap).
Proof.
  unfold bw_write.
  destruct (Nat.ltb_spec (length d) (cap - length buf)) as [H1|H1]; cbn [fst snd].
  - split; [now rewrite app_assoc|]. split; [exists []; now rewrite app_nil_r|]. rewrite app_length. lia.
  - destruct (Nat.ltb_spec (cap - length buf) (length d)) as [H2|H2]; cbn [fst snd];
      destruct (Nat.leb_spec cap (length d)) as [H3|H3]; cbn [fst snd].
    + split; [now rewrite app_nil_r|]. split; [exists (buf ++ d); now rewrite app_assoc|]. intros _. apply Nat.le_0_l.
    + split; [reflexivity|]. split; [now exists buf|]. cbn. lia.
    + assert (Hc : buf = [] \/ d = []) by (rewrite <- !length_zero_iff_nil; lia).
      destruct Hc as [-> | ->]; (split; [now rewrite !app_nil_r|]); split; eauto.
    + split; [now rewrite app_assoc|]. split; [exists []; now rewrite app_nil_r|]. rewrite app_length. lia.
Qed.

Lemma undropped_pos (l : list wr) : forall i w, nth_error l i = Some w -> dropped w = false -> 0 < undropped l.
Proof.
  intros i w H Hd. unfold undropped.
  assert (Hin : In w (filter (fun w => negb (dropped w)) l)).
  { apply filter_In. split; [exact (nth_error_In l i H)|now rewrite Hd]. }
  destruct (filter _ l); [contradiction|cbn; lia].
Qed.

Lemma undropped_zero_all (l : list wr) : undropped l = 0 ->
  forall i w, nth_error l i = Some w -> dropped w = true.
Proof.
  intros H i w Hi. destruct (dropped w) eqn:Hd; [reflexivity|]. pose proof (undropped_pos l i w Hi Hd). lia.
Qed.

Lemma all_undropped_zero (l : list wr) : (forall i w, nth_error l i = Some w -> dropped w = true) -> undropped l = 0.
Proof.
  unfold undropped. induction l as [|a l IH]; intros H; [reflexivity|]. cbn.
  rewrite (H 0 a eq_refl). cbn. apply IH. intros i w Hi. exact (H (S i) w Hi).
Qed.

Lemma undropped_least (l : list wr) : undropped l = 0 <-> least_undropped l = None.
Proof.
  split; intros H.
  - destruct (least_undropped l) as [k|] eqn:E; [|reflexivity].
    destruct (least_undropped_some byte l k E) as ((w & Hw & Hd) & _).
    pose proof (undropped_pos l k w Hw Hd). lia.
  - apply all_undropped_zero. exact (least_undropped_none byte l H).
Qed.

(* one step of the chain, seen from the writer it touches: `step_op_inversion` with the writer after the step left abstract *)
Lemma step_idx fixed (t : st) l t' i : step fixed t l = Some t' -> label_index l = Some i ->
  exists w w', nth_error (ws t) i = Some w /\ dropped w = false /\
    ws t' = upd (ws t) i w' /\ stream t' = stream t ++ wdata i l /\
    dropped w' = (match l with DropW _ => true | _ => false end).
Proof.
  intros H Hl. destruct (step_op_inversion byte fixed t l i t' Hl H) as (w & tn & Hi & Hd & -> & _).
  exists w. eexists. cbn. repeat split; auto.
  (* `ws t' = upd …` has fixed w' to the writer step_op_inversion names; its `dropped` is `is_drop`, which for
     DropW j is `j =? i`, and Hl says j = i *)
  destruct l as [|j d|j|j]; try reflexivity. injection Hl as ->. apply Nat.eqb_refl.
Qed.

Lemma step_touched_undropped fixed (t : st) l t' i : step fixed t l = Some t' -> label_index l = Some i ->
  0 < undropped (ws t).
Proof.
  intros H Hl. destruct (step_idx fixed t l t' i H Hl) as (w & _ & Hi & Hd & _). exact (undropped_pos _ i w Hi Hd).
Qed.

Lemma step_not_drop_undropped fixed (t : st) l t' i : step fixed t l = Some t' -> label_index l = Some i ->
  (forall j, l <> DropW j) -> 0 < undropped (ws t').
Proof.
  intros H Hl Hnd. destruct (step_idx fixed t l t' i H Hl) as (w & w' & Hi & _ & Hws & _ & Hd').
  apply (undropped_pos _ i w').
  - rewrite Hws. apply nth_upd_same. apply nth_error_Some. congruence.
  - rewrite Hd'. destruct l; try reflexivity. exfalso. now apply (Hnd i0).
Qed.

Lemma release_sw s : sw (release s) = sw s.
Proof. unfold release. now destruct (handles s =? 0). Qed.

Lemma release_alive s : builder_alive (release s) = builder_alive s.
Proof. unfold release. now destruct (handles s =? 0). Qed.

Lemma release_handles s : handles (release s) = handles s.
Proof. unfold handles. now rewrite release_sw, release_alive. Qed.

Lemma release_closed s : wr_closed s = false -> wr_closed (release s) = (handles s =? 0).
Proof. unfold release. intros H. destruct (handles s =? 0); [reflexivity|exact H]. Qed.

Lemma release_total s : wire (release s) ++ buffered (release s) = wire s ++ buffered s.
Proof. unfold release. destruct (handles s =? 0); cbn; [now rewrite app_nil_r|reflexivity]. Qed.

Lemma release_wire s : exists x, wire (release s) = wire s ++ x.
Proof. unfold release. destruct (handles s =? 0); cbn; [now exists (buffered s)|exists []; now rewrite app_nil_r]. Qed.

Lemma release_buffered s : length (buffered s) <= cap -> length (buffered (release s)) <= cap.
Proof. unfold release. destruct (handles s =? 0); cbn; lia. Qed.

Lemma release_closed_empty s : wr_closed s = false -> wr_closed (release s) = true -> buffered (release s) = [].
Proof. unfold release. destruct (handles s =? 0); cbn; [reflexivity|congruence]. Qed.

Definition CI (s : cst) : Prop :=
  wr_closed s = (handles s =? 0) /\
  stream (sw s) = wire s ++ buffered s /\
  length (buffered s) <= cap /\
  (wr_closed s = true -> buffered s = []).

Lemma cinit_CI : CI cinit.
Proof. unfold CI, cinit; cbn. repeat split; auto; try lia. Qed.

Lemma no_handles_disabled fixed s l : handles s = 0 -> cstep fixed s l = None.
Proof.
  unfold handles. intros H. destruct (builder_alive s) eqn:Ea; [lia|]. cbn in H.
  destruct l as [l0|]; cbn; rewrite ?Ea; [|reflexivity].
  destruct l0 as [|i d|i|i]; rewrite ?Ea; [reflexivity| | |].
  all: destruct (step fixed (sw s) _) as [t|] eqn:E; [|reflexivity].
  all: pose proof (step_touched_undropped fixed (sw s) _ t i E eq_refl); lia.
Qed.

Lemma release_CI s : wr_closed s = false ->
  stream (sw s) = wire s ++ buffered s -> length (buffered s) <= cap -> CI (release s).
Proof.
  intros Ho HB HL. unfold CI. rewrite release_handles, release_sw, release_total.
  split; [exact (release_closed s Ho)|]. split; [exact HB|].
  split; [exact (release_buffered s HL)|exact (release_closed_empty s Ho)].
Qed.

Lemma release_open s : 0 < handles s -> release s = s.
Proof. unfold release. destruct (Nat.eqb_spec (handles s) 0); [lia|reflexivity]. Qed.

(* every step is a step of the chain (or the builder's end) together with the traffic between buffer and socket,
   giving a state u, followed by `release`, which changes u only if the step gave up the last handle.
   Stated as an elimination rule (Q follows from a step if it follows from these facts about u): the same facts as a
   conjunction under `exists u` are slow to check *)
Lemma cstep_release fixed s l s' (Q : Prop) : cstep fixed s l = Some s' ->
  (forall u, s' = release u -> wr_closed u = wr_closed s ->
    (l = BuilderDrop \/ (exists i, l = CL (DropW i)) \/ s' = u) ->
    match l with CL l0 => step fixed (sw s) l0 = Some (sw u) | BuilderDrop => sw u = sw s end ->
    (stream (sw s) = wire s ++ buffered s -> stream (sw u) = wire u ++ buffered u) ->
    (exists x, wire u = wire s ++ x) ->
    (length (buffered s) <= cap -> length (buffered u) <= cap) -> Q) -> Q.
Proof.
  intros H HQ. destruct l as [[|i d|i|i]|]; cbn [cstep] in H.
  2-4: destruct (step fixed (sw s) _) as [t|] eqn:E; [|discriminate]; injection H as <-.
  2-4: destruct (step_idx fixed (sw s) _ t i E eq_refl) as (_ & _ & _ & _ & _ & Hs & _).
  (* in each case: first `s' = release u`; then `auto` closes the premises that hold by computation or by a
     hypothesis at hand; what is left is named at the case *)
  - (* New; left: the wire, with x = [] *)
    destruct (builder_alive s) eqn:Ea; [|discriminate]. cbn in H. injection H as <-.
    eapply HQ; [symmetry; apply release_open; unfold handles; cbn; rewrite Ea; apply Nat.lt_0_succ|cbn; auto ..].
    exists []. now rewrite app_nil_r.
  - (* Write; left: the stream equation (wire and bound are bw_write_spec's) *)
    pose proof (step_not_drop_undropped fixed (sw s) _ t i E eq_refl ltac:(discriminate)) as Hu.
    destruct (bw_write_spec (buffered s) (wire s) d) as (Hsum & Hx & Hlen).
    eapply HQ; [symmetry; apply release_open; exact (Nat.add_pos_r _ _ Hu)|cbn [sw wr_closed buffered wire]; auto ..].
    intros HB. rewrite Hs, Hsum, <- HB. cbn. now rewrite Nat.eqb_refl.
  - (* Flush; left: the stream equation, the wire (x = the buffer), the bound *)
    pose proof (step_not_drop_undropped fixed (sw s) _ t i E eq_refl ltac:(discriminate)) as Hu.
    eapply HQ; [symmetry; apply release_open; exact (Nat.add_pos_r _ _ Hu)|cbn [sw wr_closed buffered wire length]; auto ..].
    + intros HB. now rewrite Hs, HB, !app_nil_r.
    + now exists (buffered s).
    + intros _. apply Nat.le_0_l.
  - (* DropW; left: the stream equation, the wire (x = []) *)
    eapply HQ; [reflexivity|cbn [with_sw sw wr_closed buffered wire]; eauto ..].
    + intros HB. now rewrite Hs, HB, app_nil_r.
    + exists []. now rewrite app_nil_r.
  - (* BuilderDrop; left: the wire (x = []) *)
    destruct (builder_alive s); [|discriminate]. injection H as <-.
    eapply HQ; [reflexivity|cbn; auto ..]. exists []. now rewrite app_nil_r.
Qed.

Lemma cstep_CI fixed s l s' : CI s -> cstep fixed s l = Some s' -> CI s'.
Proof.
  intros (HA & HB & HL & _) H.
  assert (Hop : wr_closed s = false).
  { destruct (wr_closed s); [|reflexivity]. symmetry in HA. apply Nat.eqb_eq in HA.
    rewrite (no_handles_disabled fixed s l HA) in H. discriminate. }
  apply (cstep_release fixed s l s' _ H). intros u -> Hc _ _ Hs _ Hl.
  apply release_CI; auto. congruence.
Qed.

Lemma crun_CI fixed ls : forall s s', CI s -> crun fixed s ls = Some s' -> CI s'.
Proof.
  induction ls as [|l ls IH]; cbn; intros s s' HI H; [now inversion H; subst|].
  destruct (cstep fixed s l) as [s1|] eqn:E; [|discriminate]. eapply IH; [eapply cstep_CI; eauto|exact H].
Qed.

Lemma creachable_CI s : creachable s -> CI s.
Proof. intros [ls H]. exact (crun_CI true ls cinit s cinit_CI H). Qed.

Lemma crun_app fixed (l1 l2 : list clabel) : forall s,
  crun fixed s (l1 ++ l2) = match crun fixed s l1 with Some s1 => crun fixed s1 l2 | None => None end.
Proof.
  induction l1 as [|l l1 IH]; intros s; cbn; [reflexivity|].
  destruct (cstep fixed s l) as [s1|]; [apply IH|reflexivity].
Qed.

Lemma creachable_init : creachable cinit.
Proof. exists []. reflexivity. Qed.

Lemma creachable_run s ls s' : creachable s -> crun true s ls = Some s' -> creachable s'.
Proof. intros [l0 H0] H. exists (l0 ++ ls). now rewrite crun_app, H0. Qed.

Lemma creachable_step s l s' : creachable s -> cstep true s l = Some s' -> creachable s'.
Proof. intros Hr H. apply (creachable_run s [l] s' Hr). cbn. now rewrite H. Qed.

(* the wrapper refines the chain: every theorem about Conc/SeqWriter.v applies to `sw` *)
Lemma cstep_proj fixed s l s' : cstep fixed s l = Some s' ->
  match l with CL l0 => step fixed (sw s) l0 = Some (sw s') | BuilderDrop => sw s' = sw s end.
Proof.
  intros H. apply (cstep_release fixed s l s' _ H). intros u -> _ _ P _ _ _. now rewrite release_sw.
Qed.

Lemma crun_proj fixed ls : forall s s', crun fixed s ls = Some s' -> run fixed (sw s) (proj ls) = Some (sw s').
Proof.
  induction ls as [|l ls IH]; intros s s' H; cbn in H; [now inversion H|].
  destruct (cstep fixed s l) as [s1|] eqn:E; [|discriminate]. pose proof (cstep_proj fixed s l s1 E) as P.
  specialize (IH s1 s' H). destruct l as [l0|]; cbn [proj flat_map app].
  - cbn [run]. fold (proj ls). now rewrite P.
  - fold (proj ls). now rewrite <- P.
Qed.

Lemma creachable_sw s : creachable s -> reachable (sw s).
Proof. intros [ls H]. exists (proj ls). exact (crun_proj true ls cinit s H). Qed.

Lemma creachable_Inv s : creachable s -> Inv (sw s).
Proof. intros H. apply reachable_inv. now apply creachable_sw. Qed.

(* the other direction: the wrapper blocks nothing of the chain except New after the builder is gone *)
Lemma cstep_lift fixed s l t : step fixed (sw s) l = Some t -> is_new l = false \/ builder_alive s = true ->
  exists s', cstep fixed s (CL l) = Some s' /\ sw s' = t /\ builder_alive s' = builder_alive s.
Proof.
  intros H Hn. destruct l as [|i d|i|i]; cbn [cstep].
  - destruct Hn as [Hn|Hn]; [discriminate|]. rewrite Hn, H. cbn. eexists. repeat split. exact Hn.
  - rewrite H. eexists. repeat split.
  - rewrite H. eexists. repeat split.
  - rewrite H. eexists. split; [reflexivity|]. now rewrite release_sw, release_alive.
Qed.

Lemma crun_lift fixed ls : forall s t, Forall (fun l => is_new l = false) ls -> run fixed (sw s) ls = Some t ->
  exists s', crun fixed s (map CL ls) = Some s' /\ sw s' = t /\ builder_alive s' = builder_alive s.
Proof.
  induction ls as [|l ls IH]; intros s t HF H; cbn in H.
  - inversion H. exists s. repeat split.
  - inversion HF as [|? ? Hl HF']; subst. destruct (step fixed (sw s) l) as [t1|] eqn:E; [|discriminate].
    destruct (cstep_lift fixed s l t1 E (or_introl Hl)) as (s1 & Hs1 & Hsw1 & Ha1).
    rewrite <- Hsw1 in H. destruct (IH s1 t HF' H) as (s' & Hr & Hsw & Ha).
    exists s'. cbn [map crun]. rewrite Hs1. repeat split; auto. congruence.
Qed.

Lemma handles_zero_iff s : handles s = 0 <->
  builder_alive s = false /\ forall i w, nth_error (ws (sw s)) i = Some w -> dropped w = true.
Proof.
  unfold handles. split.
  - intros H. destruct (builder_alive s); [lia|]. split; [reflexivity|]. apply undropped_zero_all. cbn in H. lia.
  - intros (-> & Hall). now rewrite (all_undropped_zero _ Hall).
Qed.

Lemma closed_iff_no_handles s : creachable s -> (wr_closed s = true <-> handles s = 0).
Proof. intros Hr. destruct (creachable_CI s Hr) as (HA & _). now rewrite HA, Nat.eqb_eq. Qed.

Lemma closed_iff_all_handles_gone s : creachable s ->
  (wr_closed s = true <-> builder_alive s = false /\ forall i w, nth_error (ws (sw s)) i = Some w -> dropped w = true).
Proof. intros Hr. rewrite (closed_iff_no_handles s Hr). apply handles_zero_iff. Qed.

Lemma not_closed_while_unanswered s : creachable s ->
  builder_alive s = true \/ (exists i w, nth_error (ws (sw s)) i = Some w /\ dropped w = false) ->
  wr_closed s = false.
Proof.
  intros Hr H. destruct (wr_closed s) eqn:Ec; [|reflexivity].
  apply (closed_iff_all_handles_gone s Hr) in Ec as (Ha & Hall).
  destruct H as [H|(i & w & Hi & Hd)]; [congruence|]. rewrite (Hall i w Hi) in Hd. discriminate.
Qed.

Lemma close_is_final s l : creachable s -> wr_closed s = true -> cstep true s l = None.
Proof. intros Hr Hc. apply no_handles_disabled. now apply closed_iff_no_handles. Qed.

Lemma closed_only_at_end s l1 l l2 s1 s' : creachable s ->
  crun true s l1 = Some s1 -> crun true s (l1 ++ l :: l2) = Some s' -> wr_closed s1 = false.
Proof.
  intros Hr H1 H. rewrite crun_app, H1 in H. cbn in H.
  destruct (wr_closed s1) eqn:Ec; [|reflexivity].
  rewrite (close_is_final s1 l (creachable_run s l1 s1 Hr H1) Ec) in H. discriminate.
Qed.

Lemma wire_buffer_split s : creachable s ->
  wire s ++ buffered s = concat (map sent (ws (sw s))) /\ length (buffered s) <= cap.
Proof.
  intros Hr. destruct (creachable_CI s Hr) as (_ & HB & HL & _).
  destruct (creachable_Inv s Hr) as (Hs & _). split; [congruence|exact HL].
Qed.

Lemma everything_on_the_wire_at_close s : creachable s -> wr_closed s = true ->
  wire s = concat (map sent (ws (sw s))) /\ buffered s = [] /\ wire s = stream (sw s).
Proof.
  intros Hr Hc. destruct (creachable_CI s Hr) as (_ & HB & _ & HE).
  destruct (creachable_Inv s Hr) as (Hs & _). specialize (HE Hc). rewrite HE, app_nil_r in HB.
  repeat split; congruence.
Qed.

Lemma closing_step s l s' : creachable s -> cstep true s l = Some s' -> wr_closed s = false -> wr_closed s' = true ->
  (l = BuilderDrop \/ exists i, l = CL (DropW i)) /\
  wire s' = wire s ++ buffered s /\ wire s' = concat (map sent (ws (sw s'))) /\ stream (sw s') = stream (sw s).
Proof.
  intros Hr H Ho Hc.
  destruct (everything_on_the_wire_at_close s' (creachable_step s l s' Hr H) Hc) as (Hw & _ & Hws).
  destruct (creachable_CI s Hr) as (_ & HB & _).
  assert (Hl : l = BuilderDrop \/ exists i, l = CL (DropW i)).
  { apply (cstep_release true s l s' _ H). intros u _ Hu [Hl|[Hl|<-]] _ _ _ _; auto. congruence. }
  assert (Hst : stream (sw s') = stream (sw s)).
  { pose proof (cstep_proj true s l s' H) as P. destruct Hl as [->|(i & ->)]; [now rewrite P|].
    destruct (step_idx true (sw s) _ (sw s') i P eq_refl) as (_ & _ & _ & _ & _ & Hs & _). cbn in Hs.
    now rewrite app_nil_r in Hs. }
  repeat split; auto. congruence.
Qed.

Lemma flush_puts_on_wire s i s' : creachable s -> cstep true s (CL (Flush i)) = Some s' ->
  wire s' = stream (sw s') /\ buffered s' = [] /\ wire s' = concat (map sent (ws (sw s'))).
Proof.
  intros Hr H. pose proof (creachable_step s _ s' Hr H) as Hr'.
  destruct (creachable_CI s' Hr') as (_ & HB & _). destruct (creachable_Inv s' Hr') as (Hs & _).
  cbn [cstep] in H. destruct (step true (sw s) (Flush i)) as [t|]; [|discriminate]. injection H as <-. cbn in *.
  rewrite app_nil_r in HB. repeat split; congruence.
Qed.

Lemma wire_grows fixed s l s' : cstep fixed s l = Some s' -> exists x, wire s' = wire s ++ x.
Proof.
  intros H. apply (cstep_release fixed s l s' _ H). intros u -> _ _ _ _ (x & Hx) _.
  destruct (release_wire u) as (y & Hy). exists (x ++ y). now rewrite Hy, Hx, app_assoc.
Qed.

(* any continuation of the chain without New that leaves every writer dropped, performed after the connection
   thread has ended, runs in the wrapper as well and ends with the close, everything being on the wire *)
Lemma lift_to_close s ls t : creachable s -> builder_alive s = false ->
  Forall (fun l => is_new l = false) ls -> run true (sw s) ls = Some t -> least_undropped (ws t) = None ->
  exists s', crun true s (map CL ls) = Some s' /\ sw s' = t /\ wr_closed s' = true /\ wire s' = stream t.
Proof.
  intros Hr Ha HF H Hn. destruct (crun_lift true ls s t HF H) as (s' & Hrun & Hsw & Ha').
  pose proof (creachable_run s _ s' Hr Hrun) as Hr'.
  assert (Hc : wr_closed s' = true).
  { apply (closed_iff_no_handles s' Hr'). unfold handles. rewrite Ha', Ha, Hsw. cbn. now apply undropped_least. }
  exists s'. repeat split; auto.
  destruct (everything_on_the_wire_at_close s' Hr' Hc) as (_ & _ & Hw). now rewrite Hw, Hsw.
Qed.

Lemma arrival_no_new (opss : list (list (op byte))) : forall k, Forall (fun l => is_new l = false) (arrival k opss).
Proof.
  induction opss as [|ops r IH]; intros k; cbn [SeqWriterFacts.arrival]; [constructor|].
  apply Forall_app. split; [|apply IH]. unfold SeqWriterFacts.answer. apply Forall_app. split.
  - apply Forall_forall. intros l Hl. apply in_map_iff in Hl as (o & <- & _). now destruct o.
  - constructor; [reflexivity|constructor].
Qed.

(* the schedule "drop what is left, in index order" *)
Definition drop_rest (s : cst) : list clabel :=
  match least_undropped (ws (sw s)) with
  | Some k => map CL (drop_from k (length (ws (sw s)) - k))
  | None => []
  end.

Lemma close_eventually s : creachable s -> builder_alive s = false ->
  exists s', crun true s (drop_rest s) = Some s' /\ wr_closed s' = true /\
    wire s' = stream (sw s) /\ length (ws (sw s')) = length (ws (sw s)).
Proof.
  intros Hr Ha. unfold drop_rest. destruct (least_undropped (ws (sw s))) as [k|] eqn:El.
  - destruct (drop_all_runs byte (sw s) k (creachable_Inv s Hr) El) as (t & Hrun & Hstr & Hlen & Hn).
    destruct (lift_to_close s (drop_from k (length (ws (sw s)) - k)) t Hr Ha) as (s' & Hrun' & Hsw & Hc & Hw); auto.
    { rewrite drop_from_arrival. apply arrival_no_new. }
    exists s'. repeat split; auto; congruence.
  - destruct (lift_to_close s [] (sw s) Hr Ha (Forall_nil _) eq_refl El) as (s' & Hrun & Hsw & Hc & Hw).
    exists s'. rewrite Hsw. auto.
Qed.

(* the same when the remaining requests are answered (arbitrary writes and flushes, then the drop) in arrival
   order after the client's half-close ended the connection thread: all the answers reach the socket, then the close *)
Lemma answered_then_closed s k (opss : list (list (op byte))) : creachable s -> builder_alive s = false ->
  least_undropped (ws (sw s)) = Some k -> length (ws (sw s)) = k + length opss ->
  exists s', crun true s (map CL (arrival k opss)) = Some s' /\ wr_closed s' = true /\
    wire s' = stream (sw s) ++ concat (map data opss) /\
    wire s' = concat (map sent (ws (sw s'))) /\
    (forall s1 l1 l l2, map CL (arrival k opss) = l1 ++ l :: l2 -> crun true s l1 = Some s1 -> wr_closed s1 = false).
Proof.
  intros Hr Ha El Hlen.
  destruct (arrival_order_no_deadlock byte (sw s) k opss (creachable_Inv s Hr) El Hlen) as (t & Hrun & Hstr & _ & Hn).
  destruct (lift_to_close s _ t Hr Ha (arrival_no_new opss k) Hrun Hn) as (s' & Hrun' & Hsw & Hc & Hw).
  exists s'. split; [exact Hrun'|]. split; [exact Hc|]. split; [congruence|]. split.
  - exact (proj1 (everything_on_the_wire_at_close s' (creachable_run s _ s' Hr Hrun') Hc)).
  - intros s1 l1 l l2 Hsplit H1. rewrite Hsplit in Hrun'. exact (closed_only_at_end s l1 l l2 s1 s' Hr H1 Hrun').
Qed.

(* the oldest unanswered request k can be written to, flushed and dropped in EVERY reachable state; there is no
   hypothesis on builder_alive, so in particular after the client's half-close has ended the connection thread,
   which is the case the name refers to *)
Lemma half_closed_still_answerable s k : creachable s -> least_undropped (ws (sw s)) = Some k ->
  wr_closed s = false /\
  (forall d, exists s', cstep true s (CL (Write k d)) = Some s') /\
  (exists s', cstep true s (CL (Flush k)) = Some s') /\
  (exists s', cstep true s (CL (DropW k)) = Some s').
Proof.
  intros Hr El. destruct (least_undropped_some byte _ _ El) as ((w & Hw & Hd) & _).
  split; [apply (not_closed_while_unanswered s Hr); right; eauto|].
  assert (L : forall l, label_index l = Some k -> exists s', cstep true s (CL l) = Some s').
  { intros l Hl. destruct (least_undropped_op_enabled byte (sw s) k l El Hl) as (t & Ht).
    destruct (cstep_lift true s l t Ht) as (s' & H & _); [left; now destruct l|eauto]. }
  repeat split; intros; now apply L.
Qed.

Lemma builder_drop_enabled fixed s : builder_alive s = true -> exists s', cstep fixed s BuilderDrop = Some s' /\
  builder_alive s' = false /\ sw s' = sw s.
Proof. intros Ha. cbn. rewrite Ha. eexists. split; [reflexivity|]. now rewrite release_alive, release_sw. Qed.

End ConnClose.

(* what a client can observe after each label of a schedule: (end-of-stream seen, bytes on the socket), plus the
   contents of the server's buffer; the trace stops where a label is not enabled (used by the Examples of Props/C12Close.v) *)
Section Trace.
Variable byte : Type.
Variable cap : nat.
Fixpoint ctrace (fixed : bool) (s : cst byte) (ls : list (clabel byte)) : list (bool * list byte * list byte) :=
  match ls with
  | [] => []
  | l :: ls' => match cstep byte cap fixed s l with
                | Some s' => (wr_closed byte s', wire byte s', buffered byte s') :: ctrace fixed s' ls'
                | None => []
                end
  end.
End Trace.
