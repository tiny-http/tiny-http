(* Props/C06Chain.v — the part of C06 ("… No request is answered twice or left unanswered, and a dropped request never
   holds up the responses that follow it") that lives at the level of the sequential-writer chain
   (src/util/sequential.rs): ordering and liveness. Each statement in a few lines from Conc/SeqWriter.v and Conc/SeqWriterFacts.v.
   ALL label sequences, any number of writers and threads, any interleaving; `step … = None` means the calling thread
   blocks; `true` = repaired tree. The response-level theorems of C06 are in Props/C06.v. *)
From Coq Require Import List Arith Bool Lia.
Import ListNotations.
From TH Require Import Conc.SeqWriter Conc.SeqWriterFacts.

(* a dropped request never holds up later responses: as soon as DropW i has succeeded, the next writer (if the next
   request was already parsed) is the least undropped one and its write, flush and drop are all enabled
   (in a reachable state DropW i can only succeed when all writers before i were dropped) *)
Theorem c06_drop_releases_followers :
  forall (byte : Type) (ls : list (label byte)) (s s' : st byte) (i : nat) (w1 : wr byte),
    run byte true (init byte) ls = Some s -> step byte true s (DropW byte i) = Some s' ->
    nth_error (ws byte s) (S i) = Some w1 ->
    least_undropped byte (ws byte s') = Some (S i) /\
    (forall d, exists s'', step byte true s' (Write byte (S i) d) = Some s'') /\
    (exists s'', step byte true s' (Flush byte (S i)) = Some s'') /\
    (exists s'', step byte true s' (DropW byte (S i)) = Some s'').
Proof.
  intros byte ls s s' i w1 H. apply drop_releases_follower. exact (run_init_inv byte ls s H).
Qed.
Print Assumptions c06_drop_releases_followers.

(* ... and if the next request is parsed only later, its writer is born released *)
Theorem c06_drop_releases_later_follower :
  forall (byte : Type) (s : st byte),
    least_undropped byte (ws byte s) = None ->
    exists s', step byte true s (New byte) = Some s' /\ least_undropped byte (ws byte s') = Some (length (ws byte s)).
Proof.
  intros byte s H. eexists. split; [reflexivity|]. cbn.
  apply (least_undropped_intro byte _ (length (ws byte s)) (fresh byte)).
  - rewrite nth_error_app2, Nat.sub_diag by lia. reflexivity.
  - reflexivity.
  - intros k wk Hk Hn. rewrite nth_error_app1 in Hn by exact Hk. exact (least_undropped_none byte _ H k wk Hn).
Qed.
Print Assumptions c06_drop_releases_later_follower.

(* dropping all remaining requests, in arrival order, without answering any of them never blocks, writes nothing
   and leaves every writer dropped *)
Theorem c06_dropping_everything_terminates :
  forall (byte : Type) (ls : list (label byte)) (s : st byte) (k : nat),
    run byte true (init byte) ls = Some s -> least_undropped byte (ws byte s) = Some k ->
    exists s', run byte true s (drop_from byte k (length (ws byte s) - k)) = Some s' /\
      stream byte s' = stream byte s /\ length (ws byte s') = length (ws byte s) /\
      least_undropped byte (ws byte s') = None.
Proof.
  intros byte ls s k H. apply drop_all_runs. exact (run_init_inv byte ls s H).
Qed.
Print Assumptions c06_dropping_everything_terminates.

(* a dropped writer accepts no further operation: Write / Flush / DropW i are all refused *)
Theorem c06_dropped_disabled :
  forall (byte : Type) (fixed : bool) (s : st byte) (i : nat) (w : wr byte) (l : label byte),
    nth_error (ws byte s) i = Some w -> dropped byte w = true -> label_index byte l = Some i ->
    step byte fixed s l = None.
Proof. exact dropped_disabled. Qed.
Print Assumptions c06_dropped_disabled.

(* along any executable sequence, no label of writer i occurs after DropW i, and writer i stays dropped *)
Theorem c06_dropped_once :
  forall (byte : Type) (fixed : bool) (s s' : st byte) (i : nat) (ls : list (label byte)),
    run byte fixed s (DropW byte i :: ls) = Some s' ->
    Forall (fun l => label_index byte l <> Some i) ls /\
    exists w, nth_error (ws byte s') i = Some w /\ dropped byte w = true.
Proof. intros byte fixed s s' i ls. apply dropped_once. Qed.
Print Assumptions c06_dropped_once.

Theorem c06_dropped_at_most_once :
  forall (byte : Type) (fixed : bool) (ls : list (label byte)) (s s' : st byte) (i : nat),
    run byte fixed s ls = Some s' -> length (filter (is_drop byte i) ls) <= 1.
Proof.
  intros byte fixed ls. induction ls as [|l ls IH]; intros s s' i H; [cbn; lia|].
  cbn [filter]. destruct (is_drop byte i l) eqn:El.
  - apply is_drop_true in El. subst l. destruct (dropped_once byte fixed s i ls s' H) as (Hf & _).
    rewrite filter_none; [cbn; lia|].
    eapply Forall_impl; [|exact Hf]. intros l Hl. destruct (is_drop byte i l) eqn:E; [|reflexivity].
    apply is_drop_true in E. now subst l.
  - cbn [run] in H. destruct (step byte fixed s l) as [s1|]; [|discriminate]. eapply IH; eauto.
Qed.
Print Assumptions c06_dropped_at_most_once.

(* the block of a dropped writer is final: whatever happens afterwards, it contributes no more bytes *)
Theorem c06_dropped_writer_frozen :
  forall (byte : Type) (fixed : bool) (ls : list (label byte)) (s s' : st byte) (i : nat) (w : wr byte),
    run byte fixed s ls = Some s' -> nth_error (ws byte s) i = Some w -> dropped byte w = true ->
    nth_error (ws byte s') i = Some w /\ Forall (fun l => label_index byte l <> Some i) ls.
Proof. exact dropped_frozen_run. Qed.
Print Assumptions c06_dropped_writer_frozen.

(* request 0 is dropped unanswered: request 1 is answered right away, nothing of request 0 is on the wire *)
Example c06_example_dropped_does_not_hold_up :
  match run nat true (init nat) [New nat; New nat; DropW nat 0; Write nat 1 [7; 8]; DropW nat 1] with
  | Some s => stream nat s = [7; 8] /\ map (sent nat) (ws nat s) = [[]; [7; 8]]
  | None => False
  end.
Proof. vm_compute. repeat split. Qed.

(* a second drop, or a write after the drop, is refused *)
Example c06_example_second_drop_refused :
  run nat true (init nat) [New nat; Write nat 0 [1]; DropW nat 0; DropW nat 0] = None /\
  run nat true (init nat) [New nat; Write nat 0 [1]; DropW nat 0; Write nat 0 [2]] = None /\
  run nat true (init nat) [New nat; Write nat 0 [1]; DropW nat 0; Flush nat 0] = None.
Proof. vm_compute. repeat split. Qed.

(* a request parsed after its predecessor was dropped is released from birth *)
Example c06_example_late_follower :
  match run nat true (init nat) [New nat; DropW nat 0; New nat; Write nat 1 [9]] with
  | Some s => stream nat s = [9]
  | None => False
  end.
Proof. vm_compute. reflexivity. Qed.
