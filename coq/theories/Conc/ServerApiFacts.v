(* Conc/ServerApiFacts.v — proofs about the executable glue Conc/ServerApi.v (harness `su`: one thread drives the
   Server's unblock / try_recv / recv_timeout / recv, a request arrives between two calls).
   Between two operations the model state is in `su_inv s fifo`: the one receiver is Idle and the queue is the fifo
   (Elem k / Token).  One operation of the glue (su_step_f, any fuel >= 1) is then defined, yields exactly the result
   of the FIFO specification su_spec_step, re-establishes the invariant, and is a run of the queue model
   (MsgQueue.run) along the labels `su_labels fifo o`; the bookkeeping fields move as expected.  By induction on the
   script: su_run = Some su_spec for ALL scripts; the whole script is one MsgQueue.run from init, so every theorem
   of Conc/MsgQueue.v applies to it. *)
From Coq Require Import List Arith Lia.
Import ListNotations.
From TH Require Import Conc.MsgQueue Conc.Instances Conc.ServerApi.

Local Arguments q {V}.
Local Arguments now {V}.
Local Arguments rs {V}.
Local Arguments pushed {V}.
Local Arguments got {V}.
Local Arguments unblocks {V}.
Local Arguments tokrets {V}.
Local Arguments tlog {V}.
Local Arguments Elem {V}.
Local Arguments Token {V}.
Local Arguments Push {V}.
Local Arguments Unblock {V}.
Local Arguments CallPop {V}.
Local Arguments CallTry {V}.
Local Arguments CallTimed {V}.
Local Arguments Timeout {V}.
Local Arguments Resume {V}.
Local Arguments Tick {V}.
Local Arguments elems {V}.
Local Arguments ntok {V}.

Local Notation mk := (Build_st nat).
Local Notation mrun := (MsgQueue.run nat mq_MS mq_EPS true).

Lemma ms_pop_empty n p g u k tl :
  su_mstep (mk [] n [Idle] p g u k tl) (CallPop 0) = Some (mk [] n [PopBlocked] p g u k tl).
Proof. reflexivity. Qed.
Lemma ms_timed_empty T n p g u k tl :
  su_mstep (mk [] n [Idle] p g u k tl) (CallTimed 0 T) = Some (mk [] n [TBlocked n n T T] p g u k tl).
Proof. reflexivity. Qed.

(* the blocked timed call: the clock reaches the deadline, the wait times out, ONE Resume returns empty-handed *)
Lemma ms_tick T n p g u k tl :
  su_mstep (mk [] n [TBlocked n n T T] p g u k tl) (Tick T) = Some (mk [] (n + T) [TBlocked n n T T] p g u k tl).
Proof.
  unfold su_mstep, mq_step, step. cbn [rs now forallb in_time andb].
  replace (n + T <=? n + T + mq_EPS) with true by (symmetry; apply Nat.leb_le; lia). reflexivity.
Qed.
Lemma ms_timeout T n p g u k tl :
  su_mstep (mk [] (n + T) [TBlocked n n T T] p g u k tl) (Timeout 0) = Some (mk [] (n + T) [TWoken true n n T T] p g u k tl).
Proof.
  unfold su_mstep, mq_step, step. cbn [rs now nth_error]. rewrite Nat.leb_refl. reflexivity.
Qed.
Lemma ms_resume_timed T n p g u k tl :
  su_mstep (mk [] (n + T) [TWoken true n n T T] p g u k tl) (Resume 0)
  = Some (mk [] (n + T) [Idle] p g u k (tl ++ [(n, T, n + T)])).
Proof. reflexivity. Qed.

(* the blocked recv: the harness's own unblock wakes it, ONE Resume consumes that token *)
Lemma ms_unblock_blocked n p g u k tl :
  su_mstep (mk [] n [PopBlocked] p g u k tl) (Unblock (Some 0)) = Some (mk [Token] n [PopWoken] p g (S u) k tl).
Proof. reflexivity. Qed.
Lemma ms_resume_pop n p g u k tl :
  su_mstep (mk [Token] n [PopWoken] p g u k tl) (Resume 0) = Some (mk [] n [Idle] p g u (S k) tl).
Proof. reflexivity. Qed.

Lemma su_new_grow s s' v : got s' = got s ++ [v] -> su_new s s' = Some v.
Proof.
  intros H. unfold su_new. rewrite H, app_length. cbn [length].
  rewrite Nat.add_sub, nth_error_app2, Nat.sub_diag by lia.
  destruct (Nat.ltb_spec (length (got s)) (length (got s) + 1)); [reflexivity|lia].
Qed.
Lemma su_new_same s s' : got s' = got s -> su_new s s' = None.
Proof. intros H. unfold su_new. rewrite H, Nat.ltb_irrefl. reflexivity. Qed.

Lemma su_resume_idle f s : su_idle s = true -> su_resume f s = Some s.
Proof. intros H. destruct f; cbn [su_resume]; rewrite H; reflexivity. Qed.
Lemma su_finish_one f s s' : su_mstep s (Resume 0) = Some s' -> su_idle s = false -> su_idle s' = true ->
  su_finish (S f) s = Some (s', su_out_of s s').
Proof.
  intros H1 H0 H2. unfold su_finish. cbn [su_resume]. rewrite H0, H1, (su_resume_idle _ _ H2). reflexivity.
Qed.
Lemma su_finish_zero s : su_idle s = false -> su_finish 0 s = None.
Proof. intros H. unfold su_finish. cbn [su_resume]. rewrite H. reflexivity. Qed.

Definition enc (x : option nat) : item nat := match x with Some k => Elem k | None => Token end.
Definition su_inv (s : su_st) (fifo : list (option nat)) : Prop := rs s = [Idle] /\ q s = map enc fifo.
Lemma su_inv_idle s fifo : su_inv s fifo -> su_idle s = true.
Proof. intros [H _]. unfold su_idle. rewrite H. reflexivity. Qed.

(* the labels of the queue model that one operation of the script stands for *)
Definition su_labels (fifo : list (option nat)) (o : su_op) : list (label nat) :=
  match o with
  | SuU => [Unblock None]
  | SuQ k => [Push k None]
  | SuY => [CallTry 0]
  | SuT T => match fifo with [] => [CallTimed 0 T; Tick T; Timeout 0; Resume 0] | _ => [CallTimed 0 T] end
  | SuR => match fifo with [] => [CallPop 0; Unblock (Some 0); Resume 0] | _ => [CallPop 0] end
  end.

Definition res_vals (r : option su_res) : list nat := match r with Some (SrVal k) => [k] | _ => [] end.
Definition res_hang (r : option su_res) : nat := match r with Some SrHang => 1 | _ => 0 end.
Definition op_push (o : su_op) : list nat := match o with SuQ k => [k] | _ => [] end.
Definition op_unb (o : su_op) : nat := match o with SuU => 1 | _ => 0 end.
Definition is_recv (o : su_op) : bool := match o with SuT _ | SuY | SuR => true | _ => false end.
(* the receive call o finds an unblock token at the head of the fifo and consumes it *)
Definition tok_taken (fifo : list (option nat)) (o : su_op) : nat :=
  if is_recv o then match fifo with None :: _ => 1 | _ => 0 end else 0.
(* the timed call o finds the fifo empty and waits for its whole time *)
Definition timed_wait (fifo : list (option nat)) (o : su_op) : option nat :=
  match o, fifo with SuT T, [] => Some T | _, _ => None end.

Record su_post (s : su_st) (fifo : list (option nat)) (o : su_op) (r : option su_res) (s' : su_st) : Prop := {
  post_got : got s' = got s ++ res_vals r;
  post_pushed : pushed s' = pushed s ++ op_push o;
  post_unblocks : unblocks s' = unblocks s + op_unb o + res_hang r;
  post_tokrets : tokrets s' = tokrets s + tok_taken fifo o + res_hang r;
  post_time : match timed_wait fifo o with
              | Some T => now s' = now s + T /\ tlog s' = tlog s ++ [(now s, T, now s + T)]
              | None => now s' = now s /\ tlog s' = tlog s end
}.

Ltac post_tac := apply Build_su_post; cbn; rewrite ?app_nil_r, ?Nat.add_0_r; auto; lia.

Lemma su_call_blocked s l s' : su_mstep s l = Some s' -> su_idle s' = false -> su_call s l = Some (s', OBlocked).
Proof. intros H1 H2. unfold su_call. rewrite H1, H2. reflexivity. Qed.

Lemma mrun_step s l s1 ls r : su_mstep s l = Some s1 -> mrun s1 ls = r -> mrun s (l :: ls) = r.
Proof. unfold su_mstep, mq_step. intros H <-. cbn [run]. now rewrite H. Qed.
Lemma mrun_1 s l s' : su_mstep s l = Some s' -> mrun s [l] = Some s'.
Proof. intros H. now apply (mrun_step s l s'). Qed.

Definition su_ok (f : nat) (s : su_st) (fifo : list (option nat)) (o : su_op) (s' : su_st) : Prop :=
  su_step_f (S f) s o = Some (s', snd (su_spec_step fifo o)) /\
  su_inv s' (fst (su_spec_step fifo o)) /\
  mrun s (su_labels fifo o) = Some s' /\
  su_post s fifo o (snd (su_spec_step fifo o)) s'.

(* an operation that is one step of the model: the step computes, the state being written out, and the glue reads the
   outcome off `got` *)
Lemma su_step_one f s fifo o : length (su_labels fifo o) = 1 -> su_inv s fifo -> exists s', su_ok f s fifo o s'.
Proof.
  intros H1 [Hrs Hq]. destruct s as [qq n rr p g u k tl]. cbn in Hrs, Hq. subst rr qq.
  destruct o as [|v|T| |], fifo as [|[v'|] fifo]; try discriminate H1.
  (* u, q k, y on any fifo; t T, r on a non-empty one. The model run and the bookkeeping are by computation *)
  all: eexists; split; [|split; [|split; [reflexivity|post_tac]]].
  all: try (split; [reflexivity|cbn [su_spec_step fst q]; now rewrite ?map_app]).
  all: lazy -[su_new]; erewrite ?su_new_grow, ?su_new_same by reflexivity; reflexivity.
Qed.

Lemma su_step_ok f s fifo o : su_inv s fifo -> exists s', su_ok f s fifo o s'.
Proof.
  intros HI. destruct o as [|v|T| |]; [| |destruct fifo as [|x fifo]..]; try (now apply su_step_one).
  all: destruct HI as [Hrs Hq]; destruct s as [qq n rr p g u k tl]; cbn in Hrs, Hq; subst rr qq.
  all: eexists; unfold su_ok; cbn [su_step_f su_spec_step su_labels fst snd map].
  - (* t T on the empty fifo: blocked, returns by time *)
    rewrite (su_call_blocked _ _ _ (ms_timed_empty T n p g u k tl) eq_refl). rewrite ms_tick, ms_timeout.
    rewrite (su_finish_one f _ _ (ms_resume_timed T n p g u k tl) eq_refl eq_refl). unfold su_out_of. rewrite su_new_same by reflexivity.
    split; [reflexivity|]. split; [split; reflexivity|]. split; [|post_tac].
    eapply mrun_step; [apply ms_timed_empty|]. eapply mrun_step; [apply ms_tick|]. eapply mrun_step; [apply ms_timeout|].
    apply mrun_1, ms_resume_timed.
  - (* r on the empty fifo: hang, released by the harness's own unblock *)
    rewrite (su_call_blocked _ _ _ (ms_pop_empty n p g u k tl) eq_refl). rewrite ms_unblock_blocked.
    rewrite (su_finish_one f _ _ (ms_resume_pop n p g (S u) k tl) eq_refl eq_refl).
    split; [reflexivity|]. split; [split; reflexivity|]. split; [|post_tac].
    eapply mrun_step; [apply ms_pop_empty|]. eapply mrun_step; [apply ms_unblock_blocked|]. apply mrun_1, ms_resume_pop.
Qed.

Lemma mrun_app a : forall s b, mrun s (a ++ b) = match mrun s a with Some s1 => mrun s1 b | None => None end.
Proof.
  induction a as [|l a IH]; intros s b; cbn [app run]; [reflexivity|].
  destruct (step nat mq_MS mq_EPS true s l) as [s1|]; [apply IH|reflexivity].
Qed.

(* the labels of the queue model that a script stands for, the fifo being `fifo` at its start *)
Fixpoint su_trace (fifo : list (option nat)) (ops : list su_op) : list (label nat) :=
  match ops with [] => [] | o :: ops' => su_labels fifo o ++ su_trace (fst (su_spec_step fifo o)) ops' end.

(* observers of a script and of a result list, in the property's words *)
Definition is_val (r : su_res) : list nat := match r with SrVal k => [k] | _ => [] end.
Definition su_vals (res : list su_res) : list nat := flat_map is_val res.          (* the requests handed out, in order *)
Definition is_hang (r : su_res) : bool := match r with SrHang => true | _ => false end.
Definition su_hangs (res : list su_res) : nat := length (filter is_hang res).       (* recv calls that found nothing *)
Definition is_full (r : su_res) : bool := match r with SrNone false => true | _ => false end.
Definition su_fulls (res : list su_res) : nat := length (filter is_full res).       (* timed calls that returned by time *)
Definition su_pushes (ops : list su_op) : list nat := flat_map op_push ops.         (* the arguments of q, in order *)
Definition is_u (o : su_op) : bool := match o with SuU => true | _ => false end.
Definition su_unblocks (ops : list su_op) : nat := length (filter is_u ops).        (* the number of u *)
(* the number of receive calls of the script that consume an unblock token *)
Fixpoint su_token_calls (fifo : list (option nat)) (ops : list su_op) : nat :=
  match ops with [] => 0 | o :: ops' => tok_taken fifo o + su_token_calls (fst (su_spec_step fifo o)) ops' end.
Definition su_final_fifo (ops : list su_op) : list (option nat) := fst (su_spec_from [] ops).
Definition opt_req (x : option nat) : list nat := match x with Some k => [k] | None => [] end.
Definition fifo_reqs (fifo : list (option nat)) : list nat := flat_map opt_req fifo.
Definition is_tok (x : option nat) : bool := match x with None => true | Some _ => false end.
Definition fifo_toks (fifo : list (option nat)) : nat := length (filter is_tok fifo).

Lemma elems_enc fifo : elems (map enc fifo) = fifo_reqs fifo.
Proof. induction fifo as [|[k|] fifo IH]; cbn; [reflexivity| |exact IH]. f_equal. exact IH. Qed.
Lemma ntok_enc fifo : ntok (map enc fifo) = fifo_toks fifo.
Proof. induction fifo as [|[k|] fifo IH]; cbn; [reflexivity|exact IH|]. f_equal. exact IH. Qed.

Definition cons_res (r : option su_res) (res : list su_res) : list su_res := match r with Some x => x :: res | None => res end.
Lemma su_spec_from_cons fifo o ops :
  su_spec_from fifo (o :: ops) =
  (fst (su_spec_from (fst (su_spec_step fifo o)) ops),
   cons_res (snd (su_spec_step fifo o)) (snd (su_spec_from (fst (su_spec_step fifo o)) ops))).
Proof.
  cbn [su_spec_from]. destruct (su_spec_step fifo o) as [fifo' r]. cbn [fst snd].
  destruct (su_spec_from fifo' ops) as [fifo'' res]. reflexivity.
Qed.

Lemma su_vals_cons r res : su_vals (cons_res r res) = res_vals r ++ su_vals res.
Proof. destruct r as [[]|]; reflexivity. Qed.
Lemma su_hangs_cons r res : su_hangs (cons_res r res) = res_hang r + su_hangs res.
Proof. destruct r as [[]|]; reflexivity. Qed.
Lemma su_unblocks_cons o ops : su_unblocks (o :: ops) = op_unb o + su_unblocks ops.
Proof. destruct o; reflexivity. Qed.
(* a timed call waits for its whole time exactly when its result is "N, by time" *)
Lemma timed_wait_full fifo o :
  (if timed_wait fifo o then 1 else 0) = su_fulls (cons_res (snd (su_spec_step fifo o)) []).
Proof. destruct o, fifo as [|[v|] fifo]; reflexivity. Qed.
Lemma su_fulls_cons r res : su_fulls (cons_res r res) = su_fulls (cons_res r []) + su_fulls res.
Proof. destruct r as [[| [] | |]|]; reflexivity. Qed.

Record su_posts (s : su_st) (fifo : list (option nat)) (ops : list su_op) (res : list su_res) (s' : su_st) : Prop := {
  posts_got : got s' = got s ++ su_vals res;
  posts_pushed : pushed s' = pushed s ++ su_pushes ops;
  posts_unblocks : unblocks s' = unblocks s + su_unblocks ops + su_hangs res;
  posts_tokrets : tokrets s' = tokrets s + su_token_calls fifo ops + su_hangs res;
  posts_tlog : length (tlog s') = length (tlog s) + su_fulls res;
  posts_exact : forall t0 T t1, In (t0, T, t1) (tlog s') -> In (t0, T, t1) (tlog s) \/ t1 = t0 + T
}.

Lemma su_run_ok f : forall ops s fifo, su_inv s fifo ->
  exists s', su_run_from (S f) s ops = Some (s', snd (su_spec_from fifo ops)) /\
             su_inv s' (fst (su_spec_from fifo ops)) /\
             mrun s (su_trace fifo ops) = Some s' /\
             su_posts s fifo ops (snd (su_spec_from fifo ops)) s'.
Proof.
  induction ops as [|o ops IH]; intros s fifo HI.
  - exists s. cbn [su_run_from su_spec_from su_trace run fst snd]. destruct HI as [Hr Hq]. repeat split; auto; cbn; rewrite ?app_nil_r; try reflexivity; lia.
  - destruct (su_step_ok f s fifo o HI) as (s1 & E1 & HI1 & R1 & P1).
    destruct (IH s1 _ HI1) as (s2 & E2 & HI2 & R2 & P2).
    exists s2. rewrite su_spec_from_cons. cbn [fst snd su_run_from su_trace]. rewrite E1, E2.
    split; [reflexivity|]. split; [exact HI2|]. split; [rewrite mrun_app, R1; exact R2|].
    destruct P1 as [G1 Pu1 U1 K1 T1], P2 as [G2 Pu2 U2 K2 L2 X2]. constructor.
    + rewrite G2, G1, su_vals_cons, app_assoc. reflexivity.
    + rewrite Pu2, Pu1. unfold su_pushes. cbn [flat_map]. rewrite app_assoc. reflexivity.
    + rewrite U2, U1, su_unblocks_cons, su_hangs_cons. lia.
    + rewrite K2, K1, su_hangs_cons. cbn [su_token_calls]. lia.
    + rewrite L2, su_fulls_cons, <- timed_wait_full. destruct (timed_wait fifo o) as [T|]; destruct T1 as [_ ->]; [rewrite app_length; cbn [length]|]; lia.
    + intros t0 T0 t1 Hin. destruct (X2 _ _ _ Hin) as [Hin1|Hx]; [|right; exact Hx].
      destruct (timed_wait fifo o) as [T|]; destruct T1 as [_ T1b]; rewrite T1b in Hin1; [|left; exact Hin1].
      apply in_app_or in Hin1 as [Hin1|[Hin1|[]]]; [left; exact Hin1|]. inversion Hin1; subst. right; reflexivity.
Qed.

Lemma su_inv_init : su_inv su_init [].
Proof. split; reflexivity. Qed.

(* never stuck, and exactly the FIFO specification; one Resume round is enough *)
Theorem su_run_f_is_spec f ops : su_run_f (S f) ops = Some (su_spec ops).
Proof.
  destruct (su_run_ok f ops su_init [] su_inv_init) as (s' & E & HI & _). unfold su_run_f, su_spec.
  rewrite E, (su_inv_idle _ _ HI). reflexivity.
Qed.

Lemma su_reach pre s res : su_run_from su_fuel su_init pre = Some (s, res) ->
  res = su_spec pre /\ su_inv s (su_final_fifo pre) /\
  mrun (init nat 1) (su_trace [] pre) = Some s /\ su_posts su_init [] pre res s.
Proof.
  intros H. destruct (su_run_ok 3 pre su_init [] su_inv_init) as (s' & E & HI & R & P).
  change (S 3) with su_fuel in E. rewrite E in H. inversion H; subst.
  split; [reflexivity|]. split; [exact HI|]. split; [exact R|exact P].
Qed.

Lemma mq_MS_pos : 0 < mq_MS.
Proof. unfold mq_MS. lia. Qed.

(* fifo_exactly_once, read off a script: the requests handed out, in order, followed by the requests still queued, are
   the requests that arrived, in order; every unblock is used by exactly one receive call or is still queued *)
Lemma su_fifo_once ops :
  su_vals (su_spec ops) ++ fifo_reqs (su_final_fifo ops) = su_pushes ops /\
  su_unblocks ops = su_token_calls [] ops + fifo_toks (su_final_fifo ops).
Proof.
  destruct (su_run_ok 3 ops su_init [] su_inv_init) as (s & _ & [_ Hq] & R & [G Pu U K _ _]).
  destruct (fifo_exactly_once nat mq_MS mq_MS_pos mq_EPS true 1 _ _ R) as [HA HB].
  rewrite Hq, elems_enc, G, Pu in HA. rewrite Hq, ntok_enc, K, U in HB. split; [exact HA|].
  unfold su_final_fifo. cbn in HB. lia.
Qed.

(* the results a receive call of each kind can have *)
Definition res_shape (o : su_op) (r : su_res) : Prop :=
  match o with
  | SuY => match r with SrVal _ | SrNone true => True | _ => False end           (* never hang, never "by time" *)
  | SuT _ => match r with SrVal _ | SrNone _ => True | _ => False end
  | SuR => match r with SrVal _ | SrErr | SrHang => True | _ => False end
  | _ => False
  end.

Lemma su_spec_shapes ops : forall fifo, Forall2 res_shape (filter is_recv ops) (snd (su_spec_from fifo ops)).
Proof.
  induction ops as [|o ops IH]; intros fifo; [constructor|].
  rewrite su_spec_from_cons. cbn [snd filter].
  destruct o as [|v|T| |]; cbn [is_recv su_spec_step]; try apply IH;
    destruct fifo as [|[v|] fifo]; cbn [fst snd cons_res]; (constructor; [exact I|apply IH]).
Qed.
