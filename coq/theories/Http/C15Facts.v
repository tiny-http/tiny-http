(* Http/C15Facts.v — C15: the client disappears. Once the client has closed its sending side no read
   of any reader blocks, so every handler loop ends and the server always closes (never hangs).
   (What an incomplete head reads as is in Http/ServeStreamFacts.v.) *)
From TH Require Import Base.Bytes Http.Request Http.Body Http.Serve
  Http.StreamFacts Http.ServeFacts Http.ServeStreamFacts.
From Coq Require Import Lia ZArith.

(* for the connection and the chunk decoder in one statement per function: a blocked result is
   impossible, any other leaves a stream that is still at its end *)
Lemma src_read_eof n st : seof st = true ->
  match src_read n st with (RBlock, _) => False | (_, st') => seof st' = true end.
Proof.
  intros He. unfold src_read. destruct n; [exact He|]. destruct (sbytes st); [rewrite He|]; exact He.
Qed.

Lemma src_byte_eof st : seof st = true ->
  match src_byte st with (BBlock, _) => False | (_, st') => seof st' = true end.
Proof. intros He. unfold src_byte. destruct (sbytes st); [rewrite He|]; exact He. Qed.

Lemma expect_byte_eof ch st : seof st = true ->
  match expect_byte ch st with (DBlock, _) => False | (_, st') => seof st' = true end.
Proof.
  intros He. unfold expect_byte. pose proof (src_byte_eof st He) as H.
  destruct (src_byte st) as [[b| |] st']; [destruct (Ascii.eqb b ch)|..]; exact H.
Qed.

Lemma size_bytes_eof fuel : forall in_ext acc st, (slen st < fuel)%nat -> seof st = true ->
  match size_bytes fuel in_ext acc st with (DBlock, _) => False | (_, st') => seof st' = true end.
Proof.
  induction fuel as [|f IH]; intros in_ext acc st Hl He; [lia|]. cbn [size_bytes]. unfold src_byte.
  unfold slen in Hl. destruct (sbytes st) as [|b t] eqn:E; [rewrite He; exact He|].
  cbn [List.length] in Hl.
  assert (Hn : (slen (mkS t (seof st)) < f)%nat) by (unfold slen; cbn [sbytes]; lia).
  destruct (Ascii.eqb b CR); [exact He|].
  destruct in_ext; [apply IH; assumption|]. destruct (Ascii.eqb b ";"); apply IH; assumption.
Qed.

Lemma read_chunk_size_eof st : seof st = true ->
  match read_chunk_size st with (DBlock, _) => False | (_, st') => seof st' = true end.
Proof.
  intros He. unfold read_chunk_size.
  pose proof (size_bytes_eof (S (List.length (sbytes st))) false [] st) as H.
  destruct (size_bytes _ _ _ _) as [[x| |] st1]; [|apply H; [unfold slen; lia|exact He]..].
  pose proof (expect_byte_eof LF st1 (H ltac:(unfold slen; lia) He)) as H1.
  destruct (expect_byte LF st1) as [[u| |] st2]; [destruct (parse_chunk_size x)|..]; exact H1.
Qed.

Lemma read_crlf_eof st : seof st = true ->
  match read_crlf st with (DBlock, _) => False | (_, st') => seof st' = true end.
Proof.
  intros He. unfold read_crlf. pose proof (expect_byte_eof CR st He) as H.
  destruct (expect_byte CR st) as [[u| |] st1]; [apply expect_byte_eof, H|exact H..].
Qed.

Lemma dgo_eof n rem r st : seof st = true ->
  match dgo n rem r st with (RBlock, _, _) => False | (_, _, st') => seof st' = true end.
Proof.
  intros He. unfold dgo. destruct (N.of_nat n <? r)%N.
  - pose proof (src_read_eof n st He) as H. destruct (src_read n st) as [[d| | |] st1]; exact H.
  - pose proof (src_read_eof (N.to_nat r) st He) as H.
    destruct (src_read (N.to_nat r) st) as [[d| | |] st1]; try exact H.
    destruct (len d =? r)%N; [|exact H]. pose proof (read_crlf_eof st1 H) as H1.
    destruct (read_crlf st1) as [[u| |] st2]; exact H1.
Qed.

Lemma dec_read_eof n rem st : seof st = true ->
  match dec_read n rem st with (RBlock, _, _) => False | (_, _, st') => seof st' = true end.
Proof.
  intros He. destruct rem as [r|]; [apply dgo_eof, He|]. rewrite dec_read_none.
  pose proof (read_chunk_size_eof st He) as H.
  destruct (read_chunk_size st) as [[sz| |] st1]; try exact H.
  destruct (sz =? 0)%N; [|apply dgo_eof, H].
  pose proof (read_crlf_eof st1 H) as H1. destruct (read_crlf st1) as [[u| |] st2]; exact H1.
Qed.

Lemma adv_eof st st' : advanced st st' -> seof st = true -> seof st' = true.
Proof. intros [E _] He. now rewrite E. Qed.

Lemma body_read_noblock c n r st al : seof st = true ->
  match body_read c n r st al with (RBlock, _, _, _) => False | (_, _, st', _) => seof st' = true end.
Proof.
  intros He. destruct r as [|d|rem|rem fin|]; cbn [body_read].
  - exact He.
  - destruct d; exact He.
  - destruct (rem =? 0)%N; [exact He|].
    match goal with |- context [src_read ?k st] =>
      pose proof (src_read_eof k st He) as H; destruct (src_read k st) as [[d| | |] st1] end; try exact H.
    pose proof (adv_eof _ _ (discard_adv c 1 rem st1 al) H) as H3.
    destruct (discard c 1 rem st1 al) as [st2 al2]. exact H3.
  - destruct fin; [exact He|]. pose proof (dec_read_eof n rem st He) as H.
    destruct (dec_read n rem st) as [[[d| | |] rem'] st1]; exact H.
  - pose proof (src_read_eof n st He) as H. destruct (src_read n st) as [[d| | |] st1]; exact H.
Qed.

Lemma body_read_any_noblock c n r st al : seof st = true ->
  match body_read_any c n r st al with (RBlock, _, _, _) => False | (_, _, st', _) => seof st' = true end.
Proof.
  intros He. destruct n as [|n]; cbn [body_read_any]; [|apply body_read_noblock, He].
  destruct r as [|d|rem|rem fin|]; cbn [body_read_zero]; try exact He.
  - destruct (rem =? 0)%N; [exact He|]. rewrite He.
    destruct (sbytes st) as [|b0 b];
      match goal with |- context [discard c ?f rem st al] =>
        pose proof (adv_eof _ _ (discard_adv c f rem st al) He) as H; destruct (discard c f rem st al) end;
      exact H.
  - destruct fin; [exact He|]. destruct (fix_d4 c); [|apply body_read_noblock, He].
    exact (adv_eof _ _ (drain_adv _ _ _) He).
Qed.

Lemma take_noblock c fuel : forall m n r st al acc, seof st = true ->
  snd (fst (fst (fst (take c fuel m n r st al acc)))) <> EndBlock.
Proof.
  induction fuel as [|f IH]; intros m n r st al acc He; cbn [take]; [discriminate|].
  destruct (m =? 0)%N; [discriminate|].
  match goal with |- context [body_read_any c ?w r st al] =>
    pose proof (body_read_any_noblock c w r st al He) as H;
    destruct (body_read_any c w r st al) as [[[[d| | |] r1] st1] al1] end;
    [apply IH, H|discriminate|discriminate|destruct H].
Qed.

Lemma do_reads_noblock c reads : forall r st al acc e, seof st = true -> e <> EndBlock ->
  snd (fst (fst (fst (do_reads c reads r st al acc e)))) <> EndBlock.
Proof.
  induction reads as [|[m n] t IH]; intros r st al acc e He Hne; cbn [do_reads]; [exact Hne|].
  match goal with |- context [take c ?fu m n r st al acc] =>
    pose proof (take_noblock c fu m n r st al acc He) as H1; pose proof (take_adv c fu m n r st al acc) as H2;
    destruct (take c fu m n r st al acc) as [[[[acc1 e1] r1] st1] al1] end.
  cbn [fst snd] in H1, H2.
  destruct e1; [apply IH; [exact (adv_eof _ _ H2 He)|discriminate]|discriminate..|contradiction].
Qed.

Theorem handle_eof c date act m ver hs expects rd st1 al1 : seof st1 = true ->
  h_end (handle c date act m ver hs expects rd st1 al1) <> EndBlock /\
  seof (h_st4 (handle c date act m ver hs expects rd st1 al1)) = true.
Proof.
  intros He. split; [|exact (adv_eof _ _ (handle_adv c date act m ver hs expects rd st1 al1) He)].
  destruct (handle_reads c date act m ver hs expects rd st1 al1)
    as (got & e & rd2 & st2 & al2 & rd3 & st3 & E1 & E2 & _).
  pose proof (do_reads_noblock c (a_reads act) rd st1 al1 [] EndCount He ltac:(discriminate)) as N1.
  pose proof (do_reads_adv c (a_reads act) rd st1 al1 [] EndCount) as A1.
  rewrite E1 in N1, A1. cbn [fst snd] in N1, A1.
  pose proof (do_reads_noblock c (finish_reads (a_finish act)) rd2 st2 al2 got e (adv_eof _ _ A1 He) N1) as N2.
  now rewrite E2 in N2.
Qed.

Definition ends_closed (r : step_result) : Prop :=
  match r with SDone o => o_end o = CClosed | SCont _ _ _ _ _ _ => True end.

Lemma deliver_step_eof c date script dflt wire reqs ok m url ver hs bl expects rd st1 al1 :
  fix_d5 c = true -> seof st1 = true ->
  ends_closed (deliver_step c date script dflt wire reqs ok m url ver hs bl expects rd st1 al1).
Proof.
  intros H5 He. destruct (ver_gt_11 ver) eqn:Hv.
  - rewrite deliver_505 by assumption. exact I.
  - rewrite deliver_served by exact Hv.
    destruct (handle_eof c date (act_of script dflt) m ver hs expects rd st1 al1 He) as [H1 _].
    destruct (h_end _); [..|contradiction]; destruct (last_request ver hs); (reflexivity || exact I).
Qed.

Lemma serve_step_eof c date script dflt st wire reqs al ok : fix_d5 c = true -> seof st = true ->
  ends_closed (serve_step c date script dflt st wire reqs al ok).
Proof.
  intros H5 He. unfold serve_step. rewrite He.
  destruct (read_head c (sbytes st)) as [m url ver hs rest| | | |ver]; try reflexivity;
    try (destruct (render _ _ _ _ _ _); reflexivity).
  destruct (framing c hs) as [kind bl expects| |]; try (destruct (render _ _ _ _ _ _); reflexivity).
  destruct kind as [| |n| |]; cbn [built_of]; try (apply deliver_step_eof; [exact H5|reflexivity]).
  destruct (n <=? len rest)%N; [apply deliver_step_eof; [exact H5|reflexivity]|reflexivity].
Qed.

Theorem serve_loop_eof c date dflt : fix_d5 c = true -> forall f script st wire reqs al ok,
  (slen st < f)%nat -> seof st = true ->
  o_end (serve_loop c date f script dflt st wire reqs al ok) = CClosed.
Proof.
  intros H5. induction f as [|f IH]; intros script st wire reqs al ok Hl He; [lia|].
  rewrite serve_loop_S. pose proof (serve_step_eof c date script dflt st wire reqs al ok H5 He) as H.
  destruct (serve_step c date script dflt st wire reqs al ok) as [o|s' st' w' r' a' k'] eqn:E; cbn [run_step].
  - exact H.
  - apply serve_step_cont in E as [Ef El]. apply IH; [lia|now rewrite Ef].
Qed.
