(* Http/ResponseFacts.v — facts about add_header / build / final_headers used by C04, C05 and C19. *)
From TH Require Import Base.Bytes Base.BytesFacts Http.Response.

Lemma replace_first_ct_names v hs : map hname (replace_first_ct v hs) = map hname hs.
Proof.
  induction hs as [|h t IH]; cbn [replace_first_ct map]; [reflexivity|].
  destruct (equiv "Content-Type" h); cbn [map hname]; congruence.
Qed.

Lemma replace_first_ct_Forall (P : header -> Prop) v hs :
  (forall x, P x -> P (mkH (hname x) v)) -> Forall P hs -> Forall P (replace_first_ct v hs).
Proof.
  intros Hv. induction 1 as [|h t Hh Ht IH]; cbn [replace_first_ct]; [constructor|].
  destruct (equiv "Content-Type" h); constructor; auto.
Qed.

(* headers the application can never get into the list: the four protected names and Content-Length *)
Definition protected_name (h : header) : bool := forbidden h || equiv "Content-Length" h.
Definition clean (r : response) : Prop := Forall (fun h => protected_name h = false) (rheaders r).

(* a header that is stored is not protected; it is appended, or its value goes to the first Content-Type *)
Lemma add_header_Forall (P : header -> Prop) r h :
  (protected_name h = false -> P h /\ forall x, P x -> P (mkH (hname x) (hvalue h))) ->
  Forall P (rheaders r) -> Forall P (rheaders (add_header r h)).
Proof.
  intros Hh Hr. unfold add_header. destruct (forbidden h) eqn:Ef; [exact Hr|].
  destruct (equiv "Content-Length" h) eqn:El; [destruct (parse_usize (hvalue h)); exact Hr|].
  destruct Hh as [Hh Hv]; [unfold protected_name; now rewrite Ef, El|].
  destruct (equiv "Content-Type" h && existsb (equiv "Content-Type") (rheaders r)); cbn [set_headers rheaders].
  - now apply replace_first_ct_Forall.
  - apply Forall_app. auto.
Qed.

Lemma add_header_clean r h : clean r -> clean (add_header r h).
Proof. apply add_header_Forall. intros Hh. split; [exact Hh|]. intros x Hx. exact Hx. Qed.

Lemma apply_rop_clean r o : clean r -> clean (apply_rop r o).
Proof. destruct o; cbn [apply_rop]; auto using add_header_clean. Qed.

Lemma built_inv (P : response -> Prop) st hs b dl ops :
  P (mkR st [] b dl None) -> (forall r h, In h hs -> P r -> P (add_header r h)) ->
  (forall r o, In o ops -> P r -> P (apply_rop r o)) -> P (build (new_response st hs b dl) ops).
Proof. intros H0 Hh Ho. unfold build, new_response. apply fold_left_inv; [exact Ho|]. now apply fold_left_inv. Qed.

Lemma built_clean st hs b dl ops : clean (build (new_response st hs b dl) ops).
Proof. apply built_inv; [constructor|intros r h _; apply add_header_clean|intros r o _; apply apply_rop_clean]. Qed.

Definition is_cl := equiv "Content-Length".
Definition is_te := equiv "Transfer-Encoding".

(* without the framing header *)
Definition base_headers (date : bytes) (r : response) (upgrade : option bytes) : list header :=
  final_headers date r upgrade None None.

Lemma final_headers_split date r up te dl :
  final_headers date r up te dl =
  base_headers date r up ++
  match te, dl with
  | Some Chunked, _ => [mkH (s "Transfer-Encoding") (s "chunked")]
  | Some Identity, Some l => [mkH (s "Content-Length") (print_dec l)]
  | _, _ => []
  end.
Proof.
  unfold base_headers, final_headers. cbv zeta. set (h3 := match up with Some _ => _ | None => _ end).
  destruct te as [[|]|], dl; now rewrite ?app_nil_r.
Qed.

(* the stored headers, behind what raw_print puts in on its own *)
Lemma base_headers_eq date r up :
  base_headers date r up =
  match up with Some p => [mkH (s "Connection") (s "upgrade"); mkH (s "Upgrade") p] | None => [] end ++
  (if existsb (equiv "Server") (rheaders r) then [] else [mkH (s "Server") (s "tiny-http (Rust)")]) ++
  (if existsb (equiv "Date") (rheaders r) then [] else [mkH (s "Date") date]) ++ rheaders r.
Proof.
  unfold base_headers, final_headers. destruct (existsb (equiv "Date") (rheaders r)); cbn [existsb].
  2: change (equiv "Server" (mkH (s "Date") date)) with false; cbn [orb].
  all: destruct (existsb (equiv "Server") (rheaders r)), up; reflexivity.
Qed.

Lemma clean_no_framing hs : Forall (fun h => protected_name h = false) hs ->
  filter is_cl hs = [] /\ filter is_te hs = [].
Proof.
  induction 1 as [|h t Hh _ [IHcl IHte]]; cbn [filter]; [auto|]. unfold protected_name, forbidden in Hh.
  apply orb_false_iff in Hh as [Hh Hcl]. apply orb_false_iff in Hh as [Hh _]. apply orb_false_iff in Hh as [_ Hte].
  unfold is_cl, is_te in *. now rewrite Hcl, Hte.
Qed.

Lemma base_headers_no_framing date r up : clean r ->
  filter is_cl (base_headers date r up) = [] /\ filter is_te (base_headers date r up) = [].
Proof.
  intros Hc. destruct (clean_no_framing _ Hc) as [Hcl Hte]. rewrite base_headers_eq, !filter_app, Hcl, Hte.
  assert (Hopt : forall p (c : bool) (h : header), p h = false -> filter p (if c then [] else [h]) = []).
  { intros p c h Hh. destruct c; cbn [filter]; now rewrite ?Hh. }
  rewrite !Hopt by reflexivity. destruct up; split; reflexivity.
Qed.

Theorem framing_headers date r up te dl : clean r ->
  let hs := final_headers date r up te dl in
  match te, dl with
  | Some Chunked, _ => filter is_te hs = [mkH (s "Transfer-Encoding") (s "chunked")] /\ filter is_cl hs = []
  | Some Identity, Some l => filter is_cl hs = [mkH (s "Content-Length") (print_dec l)] /\ filter is_te hs = []
  | _, _ => filter is_cl hs = [] /\ filter is_te hs = []
  end.
Proof.
  intros Hc hs. subst hs. rewrite final_headers_split, !filter_app.
  destruct (base_headers_no_framing date r up Hc) as [-> ->].
  destruct te as [[|]|], dl; split; reflexivity.
Qed.
