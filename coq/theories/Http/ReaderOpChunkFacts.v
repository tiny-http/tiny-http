(* Http/ReaderOpChunkFacts.v — chunked_transfer::Decoder over the operational BufReader (C13).
   The byte-wise parts (chunk-size line, CR, LF) are exactly the functions of Body.v applied to
   the logical stream. *)
From TH Require Import Base.Bytes Http.Body Http.StreamFacts Http.ReaderOp Http.ReaderOpFacts Http.C13Facts.
From Coq Require Import Lia.
Open Scope char_scope.

(* StreamFacts.advanced: the flag stays and a suffix of the bytes is left. The fuel arguments below
   also need that a chunk-size line that was read took at least one byte. *)
Lemma adv_length st st' : advanced st st' -> List.length (sbytes st') <= List.length (sbytes st).
Proof. intros (_ & u & ->). rewrite app_length. lia. Qed.

Lemma adv_eof x e st' : advanced (mkS x e) st' -> st' = mkS (sbytes st') e.
Proof. destruct st' as [x1 e1]. intros (E & _). cbn [sbytes seof] in *. now subst e1. Qed.

Lemma read_chunk_size_eof x e :
  snd (read_chunk_size (mkS x e)) = mkS (sbytes (snd (read_chunk_size (mkS x e)))) e.
Proof. exact (adv_eof _ _ _ (read_chunk_size_adv (mkS x e))). Qed.

Lemma size_bytes_shorter : forall f ie acc st y st', size_bytes f ie acc st = (DOk y, st') ->
  List.length (sbytes st') < List.length (sbytes st).
Proof.
  induction f as [|f IH]; intros ie acc st y st' H; cbn [size_bytes] in H; [discriminate|].
  unfold src_byte in H. destruct (sbytes st) as [|b x]; [destruct (seof st); discriminate|].
  assert (Hrec : forall ie' acc', size_bytes f ie' acc' (mkS x (seof st)) = (DOk y, st') ->
            List.length (sbytes st') < S (List.length x)).
  { intros ie' acc' H'. apply IH in H'. cbn [sbytes] in H'. lia. }
  cbn [List.length]. destruct (Ascii.eqb b CR); [injection H as _ <-; cbn [sbytes]; lia|].
  destruct ie; [exact (Hrec _ _ H)|]. destruct (Ascii.eqb b ";"); exact (Hrec _ _ H).
Qed.

Lemma read_chunk_size_shorter st sz st' : read_chunk_size st = (DOk sz, st') ->
  List.length (sbytes st') < List.length (sbytes st).
Proof.
  unfold read_chunk_size.
  destruct (size_bytes (S (List.length (sbytes st))) false [] st) as [[y| |] st1] eqn:E1; try discriminate.
  apply size_bytes_shorter in E1. pose proof (adv_length _ _ (expect_byte_adv LF st1)) as L.
  destruct (expect_byte LF st1) as [[u| |] st2]; try discriminate. cbn [snd] in L.
  destruct (parse_chunk_size y); [|discriminate]. intros [= _ <-]. lia.
Qed.

Lemma expect_byte_fn c : computes (expect_byte_op c) (on_stream (expect_byte c)).
Proof.
  intros br x e Hbr. unfold expect_byte_op, on_stream, expect_byte.
  destruct (br_byte_fn br x e Hbr) as (br' & -> & Hbr'). unfold on_stream in *.
  destruct (src_byte (mkS x e)) as [[b| |] st']; cbn [fst snd] in *;
    [destruct (Ascii.eqb b c)| |]; exists br'; auto.
Qed.

Lemma read_crlf_fn : computes read_crlf_op (on_stream read_crlf).
Proof.
  intros br x e Hbr. unfold read_crlf_op, on_stream, read_crlf.
  destruct (expect_byte_fn CR br x e Hbr) as (br1 & -> & Hbr1). unfold on_stream in *.
  pose proof (adv_eof x e _ (expect_byte_adv CR (mkS x e))) as Hst.
  destruct (expect_byte CR (mkS x e)) as [[u| |] st1]; cbn [fst snd] in *; [|exists br1; auto|exists br1; auto].
  rewrite Hst. exact (expect_byte_fn LF br1 _ e Hbr1).
Qed.

Lemma size_bytes_fn : forall f_op f_p in_ext acc br x e, holds br x e ->
  List.length x < f_op -> List.length x < f_p ->
  exists br', size_bytes_op f_op in_ext acc br = (fst (size_bytes f_p in_ext acc (mkS x e)), br') /\
              holds br' (sbytes (snd (size_bytes f_p in_ext acc (mkS x e)))) e.
Proof.
  induction f_op as [|f IH]; intros f_p in_ext acc br x e Hbr Hf1 Hf2; [lia|].
  destruct f_p as [|g]; [lia|]. cbn [size_bytes size_bytes_op].
  destruct (br_byte_fn br x e Hbr) as (br1 & -> & Hbr1).
  destruct x as [|b x]; cbn [on_stream src_byte sbytes seof fst snd] in *.
  - exists br1. destruct e; auto.
  - cbn [List.length] in Hf1, Hf2.
    assert (Hrec : forall ie a, exists br', size_bytes_op f ie a br1 = (fst (size_bytes g ie a (mkS x e)), br') /\
                                      holds br' (sbytes (snd (size_bytes g ie a (mkS x e)))) e).
    { intros ie a. apply IH; [exact Hbr1|lia|lia]. }
    destruct (Ascii.eqb b CR); [exists br1; auto|].
    destruct in_ext; [apply Hrec|]. destruct (Ascii.eqb b ";"); apply Hrec.
Qed.

Lemma read_chunk_size_fn : computes read_chunk_size_op (on_stream read_chunk_size).
Proof.
  intros br x e Hbr. unfold read_chunk_size_op, on_stream, read_chunk_size. cbn [sbytes].
  destruct (size_bytes_fn (br_fuel br) (S (List.length x)) false [] br x e Hbr (br_fuel_gt br x e Hbr)
              ltac:(lia)) as (br1 & -> & Hbr1).
  pose proof (adv_eof x e _ (size_bytes_adv (S (List.length x)) false [] (mkS x e))) as Hst.
  destruct (size_bytes (S (List.length x)) false [] (mkS x e)) as [[y| |] st1]; cbn [fst snd] in *;
    [|exists br1; auto|exists br1; auto].
  destruct (expect_byte_fn LF br1 _ e Hbr1) as (br2 & -> & Hbr2). unfold on_stream in *.
  rewrite <- Hst in *.
  destruct (expect_byte LF st1) as [[u| |] st2]; cbn [fst snd] in *; [|exists br2; auto|exists br2; auto].
  destruct (parse_chunk_size y); exists br2; auto.
Qed.

Corollary read_chunk_size_invariant br1 br2 : wf br1 -> wf br2 ->
  contents br1 = contents br2 -> br_eof br1 = br_eof br2 ->
  fst (read_chunk_size_op br1) = fst (read_chunk_size_op br2) /\
  contents (snd (read_chunk_size_op br1)) = contents (snd (read_chunk_size_op br2)).
Proof.
  intros W1 W2 Hc He.
  destruct (same_stream_of_fn _ _ read_chunk_size_fn br1 br2) as (A & _ & _ & C & _); [unfold same_stream|]; auto.
Qed.
