(* Props/C01Compose.v — C01, the two models composed: "For every connection, responses are written to the client in
   exactly the order in which that connection's requests were received, and the bytes of one response are never
   interleaved with those of another. This holds whichever threads answer the requests, in whatever order and at
   whatever moments they respond, write through the raw writer, or drop the request."

   The proofs rest on Conc/ComposeFacts.v and Conc/ComposeThreads.v, which speak of a list of blocks and of the
   segments of a connection; here the wire of `serve` is put in.

   The sequential model `serve` (Http/Serve.v) gives the bytes of a connection for an application that answers each
   request before the next one is read: `o_wire o = segs_bytes date segs` (Props/C06.v, c06_wire_decomposition), one
   segment per writer taken from the chain by the connection thread (src/client.rs: `self.sink.next()` once per
   parsed request — its handler's response, raw-writer bytes or automatic 500, or the 505 the connection thread
   itself writes through the rejected request's writer — and once per 400/417 refusal; the 408 of client.rs:211
   likewise, but `serve` does not model the time-out).
   The writer chain (Conc/SeqWriter.v, `byte := ascii`, `true` = the repaired tree) is executed by ANY label
   sequence `ls`: New (the connection thread takes the next writer), Write i d / Flush i / DropW i (whichever thread
   holds writer i), in any order; a sequence is executable (`run … = Some cs`) iff no operation in it was blocked.
   Hypotheses (a)(b)(c) of Conc/ComposeFacts.v on `ls`, with blocks := map (seg_bytes date) segs, used throughout:
     (a) run ascii true (init ascii) ls = Some cs            the interleaving is executable;
     (b) length (filter (is_new ascii) ls) = length segs      one writer per segment;
     (c) forall i < length segs, writes_of ascii i ls = seg_bytes date (nth i segs S505)
                                                             writer i wrote exactly segment i, cut into arbitrary
                                                             pieces, at arbitrary moments. *)
From Coq Require Import List Arith Bool Lia Ascii.
Import ListNotations.
From TH Require Import Base.Bytes Http.Response Http.Request Http.Body Http.Serve Http.ServeRefuseFacts Http.C12ManyFacts Http.WireFacts.
From TH Require Import Conc.SeqWriter Conc.SeqWriterFacts Conc.ComposeFacts Conc.ComposeThreads.
From TH Require Props.C06.

Theorem c01_any_interleaving_same_wire :
  forall date script dflt input eof,
    let o := serve fixed date script dflt input eof in
    forall (segs : list seg) (ls : list (label ascii)) (cs : st ascii),
      o_wire o = segs_bytes date segs ->
      run ascii true (init ascii) ls = Some cs ->
      List.length (filter (is_new ascii) ls) = List.length segs ->
      (forall i, (i < List.length segs)%nat -> writes_of ascii i ls = seg_bytes date (nth i segs S505)) ->
      stream ascii cs = o_wire o.
Proof.
  intros date script dflt input eof o segs ls cs Hwire Hrun Hn Hw. rewrite Hwire.
  apply (any_interleaving_blocks ascii _ ls cs Hrun); [now rewrite map_length|exact (writes_segments_blocks date segs ls Hw)].
Qed.
Print Assumptions c01_any_interleaving_same_wire.

(* existential form: the segments are those of c06_wire_decomposition (the delivered requests with their actions) *)
Theorem c01_any_interleaving_same_wire_ex :
  forall date script dflt input eof,
    let o := serve fixed date script dflt input eof in
    exists segs : list seg,
      o_wire o = segs_bytes date segs /\
      map snd (seg_reqs segs) = o_reqs o /\
      map fst (seg_reqs segs) = used_actions script dflt (List.length (o_reqs o)) /\
      forall (ls : list (label ascii)) (cs : st ascii),
        run ascii true (init ascii) ls = Some cs ->
        List.length (filter (is_new ascii) ls) = List.length segs ->
        (forall i, (i < List.length segs)%nat -> writes_of ascii i ls = seg_bytes date (nth i segs S505)) ->
        stream ascii cs = o_wire o.
Proof.
  intros date script dflt input eof o.
  destruct (wire_decomposition date script dflt input eof) as (segs & Hw & Hr & Ha & _).
  exists segs. repeat split; auto. intros ls cs. now apply c01_any_interleaving_same_wire.
Qed.
Print Assumptions c01_any_interleaving_same_wire_ex.

(* the same for ANY attribution of the wire to writers: a list of blocks whose concatenation is the wire. This
   covers writers that write nothing: request::new_request consumes the writer taken at client.rs:140 and drops it
   unwritten when it fails (ExpectationFailed / InvalidContentLength); the 417/400 then goes through one more writer *)
Theorem c01_any_interleaving_blocks :
  forall date script dflt input eof,
    let o := serve fixed date script dflt input eof in
    forall (blocks : list Bytes.bytes) (ls : list (label ascii)) (cs : st ascii),
      o_wire o = List.concat blocks ->
      run ascii true (init ascii) ls = Some cs ->
      List.length (filter (is_new ascii) ls) = List.length blocks ->
      (forall i, (i < List.length blocks)%nat -> writes_of ascii i ls = nth i blocks []) ->
      stream ascii cs = o_wire o.
Proof. intros * Hwire. rewrite Hwire. apply any_interleaving_blocks. Qed.
Print Assumptions c01_any_interleaving_blocks.

Theorem c01_stream_is_blocks :
  forall (byte : Type) (blocks : list (list byte)) (ls : list (label byte)) (cs : st byte),
    run byte true (init byte) ls = Some cs ->
    List.length (filter (is_new byte) ls) = List.length blocks ->
    (forall i, (i < List.length blocks)%nat -> writes_of byte i ls = nth i blocks []) ->
    stream byte cs = List.concat blocks.
Proof. exact any_interleaving_blocks. Qed.
Print Assumptions c01_stream_is_blocks.

(* the hypotheses are satisfiable for EVERY outcome of serve: all heads parsed, then the segments answered in arrival
   order, each cut into arbitrary pieces (`opss`: per writer a list of OWrite d / OFlush whose data concatenates to
   the segment) *)
Theorem c01_complete_run_gives_wire :
  forall date script dflt input eof,
    let o := serve fixed date script dflt input eof in
    forall (segs : list seg) (opss : list (list (op ascii))),
      o_wire o = segs_bytes date segs ->
      map (data ascii) opss = map (seg_bytes date) segs ->
      let ls := repeat (New ascii) (List.length segs) ++ arrival ascii 0 opss in
      exists cs, run ascii true (init ascii) ls = Some cs /\
        List.length (filter (is_new ascii) ls) = List.length segs /\
        (forall i, (i < List.length segs)%nat -> writes_of ascii i ls = seg_bytes date (nth i segs S505)) /\
        stream ascii cs = o_wire o /\ least_undropped ascii (ws ascii cs) = None.
Proof. intros * Hwire. rewrite Hwire. apply complete_run_gives_wire. Qed.
Print Assumptions c01_complete_run_gives_wire.

Theorem c01_complete_run_exists :
  forall date script dflt input eof,
    let o := serve fixed date script dflt input eof in
    exists (segs : list seg) (ls : list (label ascii)) (cs : st ascii),
      o_wire o = segs_bytes date segs /\ map snd (seg_reqs segs) = o_reqs o /\
      run ascii true (init ascii) ls = Some cs /\
      List.length (filter (is_new ascii) ls) = List.length segs /\
      (forall i, (i < List.length segs)%nat -> writes_of ascii i ls = seg_bytes date (nth i segs S505)) /\
      stream ascii cs = o_wire o.
Proof.
  intros date script dflt input eof o.
  destruct (wire_decomposition date script dflt input eof) as (segs & Hw & Hr & _).
  destruct (c01_complete_run_gives_wire date script dflt input eof segs _ Hw (data_single date segs)) as (cs & Hrun & Hn & Hws & Hs & _).
  exists segs. do 2 eexists. repeat split; eauto.
Qed.
Print Assumptions c01_complete_run_exists.

(* `consistent blocks cs`: the threads are in the middle of writing their answers *)
Theorem c01_consistent_spec :
  forall (byte : Type) (blocks : list (list byte)) (cs : st byte),
    consistent byte blocks cs <->
    forall i w, nth_error (ws byte cs) i = Some w ->
      (exists rest, nth i blocks [] = sent byte w ++ rest) /\ (dropped byte w = true -> sent byte w = nth i blocks []).
Proof. intros; reflexivity. Qed.
Print Assumptions c01_consistent_spec.

(* every answer order is schedulable: from ANY intermediate state reached by ANY interleaving ls0 — whichever
   threads went first, whatever was refused in between, some requests possibly not parsed yet — the execution can
   be completed (ls1: parse the remaining heads, then let the least undropped writer finish, and so on), every
   writer ends dropped, the completed run meets (b)(c) and the stream is the wire *)
Theorem c01_every_answer_order_is_schedulable :
  forall date script dflt input eof,
    let o := serve fixed date script dflt input eof in
    forall (segs : list seg) (ls0 : list (label ascii)) (cs : st ascii),
      o_wire o = segs_bytes date segs ->
      run ascii true (init ascii) ls0 = Some cs ->
      (List.length (ws ascii cs) <= List.length segs)%nat ->
      consistent ascii (map (seg_bytes date) segs) cs ->
      exists ls1 cs', run ascii true cs ls1 = Some cs' /\ stream ascii cs' = o_wire o /\
        least_undropped ascii (ws ascii cs') = None /\
        List.length (filter (is_new ascii) (ls0 ++ ls1)) = List.length segs /\
        (forall i, (i < List.length segs)%nat -> writes_of ascii i (ls0 ++ ls1) = seg_bytes date (nth i segs S505)).
Proof.
  intros date script dflt input eof o segs ls0 cs Hwire Hrun Hlen Hc. rewrite Hwire.
  rewrite <- (map_length (seg_bytes date)) in Hlen.
  destruct (partial_run_completes ascii _ ls0 cs Hrun Hlen Hc) as (ls1 & cs' & H1 & H2 & H3 & H4 & H5).
  exists ls1, cs'. rewrite map_length in H4. repeat split; auto. exact (blocks_writes_segments date segs _ H5).
Qed.
Print Assumptions c01_every_answer_order_is_schedulable.

(* blocked attempts: `exec` runs a list of ATTEMPTED operations, a refused one leaves the state unchanged (its
   thread waits and tries again later); the operations that went through form an executable sequence *)
Theorem c01_attempts_are_a_run :
  forall (byte : Type) (att : list (label byte)) (cs cs' : st byte) (done : list (label byte)),
    exec byte cs att = (cs', done) -> run byte true cs done = Some cs'.
Proof. intros byte att. exact (exec_run byte att). Qed.
Print Assumptions c01_attempts_are_a_run.

(* at EVERY moment of such a run (every prefix ls1 of ls1 ++ ls2) the client has received all bytes of the
   first k responses, then a prefix p of response k, and nothing else; writers before k are dropped, writer k and all
   later ones are not, the later ones have written nothing. No hypothesis on the run besides (a)(b)(c) *)
Theorem c01_prefix_in_order :
  forall date script dflt input eof,
    let o := serve fixed date script dflt input eof in
    forall (segs : list seg) (ls1 ls2 : list (label ascii)) (cs1 cs : st ascii),
      o_wire o = segs_bytes date segs ->
      run ascii true (init ascii) ls1 = Some cs1 -> run ascii true cs1 ls2 = Some cs ->
      List.length (filter (is_new ascii) (ls1 ++ ls2)) = List.length segs ->
      (forall i, (i < List.length segs)%nat -> writes_of ascii i (ls1 ++ ls2) = seg_bytes date (nth i segs S505)) ->
      exists k p q,
        stream ascii cs1 = segs_bytes date (firstn k segs) ++ p /\
        nth k (map (seg_bytes date) segs) [] = p ++ q /\ (k <= List.length segs)%nat /\
        (forall j wj, nth_error (ws ascii cs1) j = Some wj -> dropped ascii wj = (j <? k)%nat) /\
        (forall j wj, (k < j)%nat -> nth_error (ws ascii cs1) j = Some wj -> sent ascii wj = []) /\
        exists rest, o_wire o = stream ascii cs1 ++ rest.
Proof. intros * Hwire. rewrite Hwire. apply prefix_in_order_wire. Qed.
Print Assumptions c01_prefix_in_order.

Theorem c01_prefix_in_order_blocks :
  forall (byte : Type) (blocks : list (list byte)) (ls1 ls2 : list (label byte)) (cs1 cs : st byte),
    run byte true (init byte) ls1 = Some cs1 -> run byte true cs1 ls2 = Some cs ->
    List.length (filter (is_new byte) (ls1 ++ ls2)) = List.length blocks ->
    (forall i, (i < List.length blocks)%nat -> writes_of byte i (ls1 ++ ls2) = nth i blocks []) ->
    exists k p q,
      stream byte cs1 = List.concat (firstn k blocks) ++ p /\ nth k blocks [] = p ++ q /\ (k <= List.length blocks)%nat /\
      (forall j wj, nth_error (ws byte cs1) j = Some wj -> dropped byte wj = (j <? k)%nat) /\
      (forall j wj, (k < j)%nat -> nth_error (ws byte cs1) j = Some wj -> sent byte wj = []).
Proof. exact prefix_in_order. Qed.
Print Assumptions c01_prefix_in_order_blocks.

(* the threads as programs: ALL their interleavings.
   Vocabulary (Conc/ComposeThreads.v): `merge a b c` — c is a shuffle of a and b keeping the order inside each;
   `interleaving ps ls` — ls is a shuffle of all the lists ps; `progs byte 0 opss` = [answer 0 ops_0; answer 1 ops_1; …],
   `answer i ops` = the writes and flushes `ops` on writer i in order, then DropW i (the program of the thread that
   holds writer i: Response::raw_print pieces and the flush of respond, the raw writer's writes, Drop's 500, the
   connection thread's own 505 / 400 / 417). The connection thread contributes `repeat New n`. *)
Theorem c01_merge_spec :
  forall (A : Type) (a b c : list A), merge a b c <->
    (a = [] /\ b = [] /\ c = []) \/
    (exists x a' c', a = x :: a' /\ c = x :: c' /\ merge a' b c') \/
    (exists x b' c', b = x :: b' /\ c = x :: c' /\ merge a b' c').
Proof.
  intros A a b c. split.
  - intros [|x a' b' c' H|x a' b' c' H]; [left; auto|right; left; exists x, a', c'; auto|right; right; exists x, b', c'; auto].
  - intros [(-> & -> & ->)|[(x & a' & c' & -> & -> & H)|(x & b' & c' & -> & -> & H)]]; constructor; auto.
Qed.
Print Assumptions c01_merge_spec.

Theorem c01_interleaving_spec :
  forall (A : Type) (p : list A) (ps : list (list A)) (ls : list A),
    (interleaving [] ls <-> ls = []) /\ (interleaving (p :: ps) ls <-> exists lr, interleaving ps lr /\ merge p lr ls).
Proof. intros; split; reflexivity. Qed.
Print Assumptions c01_interleaving_spec.

Theorem c01_any_thread_interleaving_same_wire :
  forall date script dflt input eof,
    let o := serve fixed date script dflt input eof in
    forall (segs : list seg) (opss : list (list (op ascii))) (ls : list (label ascii)) (cs : st ascii),
      o_wire o = segs_bytes date segs ->
      map (data ascii) opss = map (seg_bytes date) segs ->
      interleaving (repeat (New ascii) (List.length segs) :: progs ascii 0 opss) ls ->
      run ascii true (init ascii) ls = Some cs ->
      stream ascii cs = o_wire o.
Proof.
  intros date script dflt input eof o segs opss ls cs Hwire Hd Hi Hrun. rewrite <- (map_eq_length _ _ _ _ Hd) in Hi.
  rewrite (any_thread_interleaving ascii opss ls cs Hi Hrun), Hd. symmetry. exact Hwire.
Qed.
Print Assumptions c01_any_thread_interleaving_same_wire.

Theorem c01_any_thread_interleaving_blocks :
  forall (byte : Type) (opss : list (list (op byte))) (ls : list (label byte)) (cs : st byte),
    interleaving (repeat (New byte) (List.length opss) :: progs byte 0 opss) ls ->
    run byte true (init byte) ls = Some cs ->
    stream byte cs = List.concat (map (data byte) opss).
Proof. exact any_thread_interleaving. Qed.
Print Assumptions c01_any_thread_interleaving_blocks.

Theorem c01_any_thread_interleaving_prefix :
  forall date script dflt input eof,
    let o := serve fixed date script dflt input eof in
    forall (segs : list seg) (opss : list (list (op ascii))) (ls1 ls2 : list (label ascii)) (cs1 cs : st ascii),
      o_wire o = segs_bytes date segs ->
      map (data ascii) opss = map (seg_bytes date) segs ->
      interleaving (repeat (New ascii) (List.length segs) :: progs ascii 0 opss) (ls1 ++ ls2) ->
      run ascii true (init ascii) ls1 = Some cs1 -> run ascii true cs1 ls2 = Some cs ->
      exists k p q,
        stream ascii cs1 = segs_bytes date (firstn k segs) ++ p /\
        nth k (map (seg_bytes date) segs) [] = p ++ q /\ (k <= List.length segs)%nat /\
        exists rest, o_wire o = stream ascii cs1 ++ rest.
Proof.
  intros date script dflt input eof o segs opss ls1 ls2 cs1 cs Hwire Hd Hi H1 H2. rewrite Hwire.
  rewrite <- (map_eq_length _ _ _ _ Hd) in Hi. destruct (thread_interleaving_hyps ascii opss _ Hi) as (Hn & Hw).
  destruct (prefix_in_order_wire date segs ls1 ls2 cs1 cs H1 H2) as (k & p & q & Hs & Hpq & Hk & _ & _ & Hrest).
  - now rewrite Hn, (map_eq_length _ _ _ _ Hd).
  - apply blocks_writes_segments. intros i _. rewrite <- Hd. apply Hw.
  - exists k, p, q. auto.
Qed.
Print Assumptions c01_any_thread_interleaving_prefix.

Theorem c01_thread_interleaving_exists :
  forall date script dflt input eof,
    let o := serve fixed date script dflt input eof in
    forall segs : list seg, o_wire o = segs_bytes date segs ->
      exists (opss : list (list (op ascii))) (ls : list (label ascii)) (cs : st ascii),
        map (data ascii) opss = map (seg_bytes date) segs /\
        interleaving (repeat (New ascii) (List.length segs) :: progs ascii 0 opss) ls /\
        run ascii true (init ascii) ls = Some cs.
Proof.
  intros date script dflt input eof o segs _. pose proof (data_single date segs) as Hd.
  destruct (complete_run_gives_wire date segs _ Hd) as (cs & Hrun & _).
  do 3 eexists. split; [exact Hd|]. split; [|exact Hrun].
  rewrite <- (map_eq_length _ _ _ _ Hd). apply arrival_is_interleaving.
Qed.
Print Assumptions c01_thread_interleaving_exists.

(* the pipeline of Props/C06.v: /a answered 200 "hello", /b dropped (500), /c answered 404 chunked *)
Definition ex_o : outcome := serve fixed (s "D") C06.c06_script C06.c06_dflt (pipeline C06.c06_ts) true.
Definition ex_segs : list seg :=
  map (fun p => SReq (fst p) (snd p)) (combine (used_actions C06.c06_script C06.c06_dflt 3) (o_reqs ex_o)).
Definition ex_b (i : nat) : Bytes.bytes := seg_bytes (s "D") (nth i ex_segs S505).

Example c01c_example_segs :
  List.length ex_segs = 3%nat /\ o_wire ex_o = segs_bytes (s "D") ex_segs /\
  map snd (seg_reqs ex_segs) = o_reqs ex_o /\
  ex_b 1 = s "HTTP/1.1 500 Internal Server Error" ++ CRLF ++ s "Server: tiny-http (Rust)" ++ CRLF ++
           s "Date: D" ++ CRLF ++ s "Content-Length: 0" ++ CRLF ++ CRLF.
Proof. vm_compute. repeat split. Qed.

(* The schedule of the chain does not depend on the bytes written: below, the blocks are abstracted before the chain
   is run (b for ex_b; f and g for firstn and skipn, of which only f n l ++ g n l = l is kept), so that serve is
   evaluated on the pipeline in c01c_example_segs only. `lazy` leaves the append of two such variables as an applied fixpoint;
   `fold (@app ascii)` restores the `++`. An equation that identifies ex_b or ex_o with its body has the constant on
   the left: checked that way round, the kernel unfolds the constant and does not evaluate the body. *)
Lemma ex_blocks : map (seg_bytes (s "D")) ex_segs = map ex_b (seq 0 3).
Proof. exact (map_via_nth _ _ S505 _ (proj1 c01c_example_segs)). Qed.

Lemma ex_wire : o_wire ex_o = List.concat (map ex_b (seq 0 3)).
Proof. rewrite (proj1 (proj2 c01c_example_segs)). unfold segs_bytes. now rewrite ex_blocks. Qed.

(* what the threads ATTEMPT, in this order. The connection thread parses the three heads; the handler of /c is
   fastest and tries to write its 404 (refused: it waits); the handler of /a writes its head bytes; the thread that
   drops /b tries to write the 500 (refused); /a's handler writes the rest; /c's handler tries again (refused), even
   its flush and drop are refused; /a flushes and is dropped; /c is STILL refused (b is not dropped); /b's 500 goes
   out in two pieces, drop; then /c at last: write, flush, drop. *)
Definition ex_attempts : list (label ascii) :=
  [New ascii; New ascii; New ascii;
   Write ascii 2 (ex_b 2);
   Write ascii 0 (firstn 20 (ex_b 0));
   Write ascii 1 (ex_b 1);
   Write ascii 0 (skipn 20 (ex_b 0));
   Write ascii 2 (ex_b 2); Flush ascii 2; DropW ascii 2;
   Flush ascii 0; DropW ascii 0;
   Write ascii 2 (ex_b 2);
   Write ascii 1 (firstn 5 (ex_b 1)); Write ascii 1 (skipn 5 (ex_b 1)); DropW ascii 1;
   Write ascii 2 (ex_b 2); Flush ascii 2; DropW ascii 2].

(* the operations that went through *)
Definition ex_ls : list (label ascii) :=
  [New ascii; New ascii; New ascii;
   Write ascii 0 (firstn 20 (ex_b 0)); Write ascii 0 (skipn 20 (ex_b 0)); Flush ascii 0; DropW ascii 0;
   Write ascii 1 (firstn 5 (ex_b 1)); Write ascii 1 (skipn 5 (ex_b 1)); DropW ascii 1;
   Write ascii 2 (ex_b 2); Flush ascii 2; DropW ascii 2].

Example c01c_example_attempts :
  snd (exec ascii (init ascii) ex_attempts) = ex_ls /\
  stream ascii (fst (exec ascii (init ascii) ex_attempts)) = o_wire ex_o /\
  run ascii true (init ascii) [New ascii; New ascii; New ascii; Write ascii 2 (ex_b 2)] = None /\
  run ascii true (init ascii) [New ascii; New ascii; New ascii; Write ascii 0 (firstn 20 (ex_b 0)); Write ascii 1 (ex_b 1)] = None.
Proof.
  rewrite ex_wire. unfold ex_attempts, ex_ls.
  generalize (@firstn_skipn ascii) ex_b. generalize (@firstn ascii) (@skipn ascii). intros f g fg b.
  lazy. fold (@app ascii). rewrite fg, <- (app_assoc (b 0)), fg, <- app_assoc, app_nil_r. repeat split.
Qed.

Example c01c_example_hyps :
  (exists cs, run ascii true (init ascii) ex_ls = Some cs) /\
  List.length (filter (is_new ascii) ex_ls) = List.length ex_segs /\
  (forall i, (i < List.length ex_segs)%nat -> writes_of ascii i ex_ls = seg_bytes (s "D") (nth i ex_segs S505)).
Proof.
  rewrite (proj1 c01c_example_segs). split; [|split; [reflexivity|]].
  - unfold ex_ls. generalize ex_b. intros b. eexists. lazy. reflexivity.
  - intros i Hi. transitivity (ex_b i); [|reflexivity]. unfold ex_ls.
    generalize (@firstn_skipn ascii) ex_b. generalize (@firstn ascii) (@skipn ascii). intros f g fg b.
    destruct i as [|[|[|i]]]; [lazy; fold (@app ascii); rewrite app_nil_r; auto ..|lia].
Qed.

(* c01_any_interleaving_same_wire applies to ex_ls; the stream is not computed *)
Example c01c_example_theorem_applies :
  forall cs, run ascii true (init ascii) ex_ls = Some cs -> stream ascii cs = o_wire ex_o.
Proof.
  intros cs H. destruct c01c_example_hyps as (_ & Hb & Hc). unfold ex_o.
  eapply c01_any_interleaving_same_wire; [|exact H|exact Hb|exact Hc].
  transitivity (o_wire ex_o); [symmetry; reflexivity|exact (proj1 (proj2 c01c_example_segs))].
Qed.

(* an interleaving in which the heads are parsed while earlier requests are being answered: same stream *)
Example c01c_example_late_heads :
  match run ascii true (init ascii)
          [New ascii; Write ascii 0 (ex_b 0); New ascii; DropW ascii 0; Write ascii 1 (ex_b 1); DropW ascii 1;
           New ascii; Write ascii 2 (ex_b 2); DropW ascii 2] with
  | Some cs => stream ascii cs = o_wire ex_o
  | None => False
  end.
Proof. rewrite ex_wire. generalize ex_b. intros b. lazy. fold (@app ascii). now rewrite <- app_assoc, app_nil_r. Qed.

(* the same sequence as an interleaving of the connection thread [New; New; New] with the three threads' programs;
   c01_any_thread_interleaving_same_wire applies *)
Definition ex_opss : list (list (op ascii)) := [[OWrite ascii (ex_b 0)]; [OWrite ascii (ex_b 1)]; [OWrite ascii (ex_b 2)]].
Definition ex_late : list (label ascii) :=
  [New ascii; Write ascii 0 (ex_b 0); New ascii; DropW ascii 0; Write ascii 1 (ex_b 1); DropW ascii 1;
   New ascii; Write ascii 2 (ex_b 2); DropW ascii 2].
Example c01c_example_interleaving :
  map (data ascii) ex_opss = map (seg_bytes (s "D")) ex_segs /\
  interleaving (repeat (New ascii) (List.length ex_segs) :: progs ascii 0 ex_opss) ex_late.
Proof.
  rewrite ex_blocks, (proj1 c01c_example_segs). unfold ex_opss, ex_late. generalize ex_b. intros b.
  split; [lazy; fold (@app ascii); now rewrite !app_nil_r|].
  eexists. split; [apply interleaving_concat|]. lazy. repeat constructor.
Qed.

(* an intermediate state (after the first 8 operations of ex_ls): response 0 complete, 5 bytes of response 1,
   nothing of response 2: k = 1, p = "HTTP/"; the state is `consistent` and writer 1 is the least undropped *)
Example c01c_example_prefix :
  match run ascii true (init ascii) (firstn 8 ex_ls) with
  | Some cs1 => stream ascii cs1 = segs_bytes (s "D") (firstn 1 ex_segs) ++ s "HTTP/" /\
                map (dropped ascii) (ws ascii cs1) = [true; false; false] /\
                map (sent ascii) (ws ascii cs1) = [ex_b 0; s "HTTP/"; []] /\
                run ascii true cs1 (skipn 8 ex_ls) <> None
  | None => False
  end.
Proof.
  assert (H5 : s "HTTP/" = firstn 5 (ex_b 1)) by (rewrite (proj2 (proj2 (proj2 c01c_example_segs))); reflexivity).
  unfold segs_bytes. rewrite H5, <- firstn_map, ex_blocks. unfold ex_ls.
  generalize (@firstn_skipn ascii) ex_b. generalize (@firstn ascii) (@skipn ascii). intros f g fg b.
  lazy. fold (@app ascii). rewrite fg, app_nil_r. repeat split. discriminate.
Qed.

Example c01c_example_consistent :
  match run ascii true (init ascii) (firstn 8 ex_ls) with
  | Some cs1 => consistent ascii (map (seg_bytes (s "D")) ex_segs) cs1
  | None => False
  end.
Proof.
  destruct c01c_example_hyps as ((cs & Hrun) & Hb & Hc).
  rewrite <- (firstn_skipn 8 ex_ls) in Hrun, Hb, Hc. rewrite run_app in Hrun.
  destruct (run ascii true (init ascii) (firstn 8 ex_ls)) as [cs1|] eqn:E; [|discriminate Hrun].
  apply (run_consistent ascii _ _ _ cs1 cs E Hrun); [now rewrite map_length|exact (writes_segments_blocks _ _ _ Hc)].
Qed.

(* the mixed connection of Props/C06.v: a dropped request, an HTTP/2.0 head (505 written by the connection thread
   through the rejected request's writer), a raw-writer answer with interim 100, a final 400. The connection
   thread's own 505 is refused while request 0 is unanswered; it goes through after writer 0 is dropped *)
Definition ex2_o : outcome := serve fixed (s "D") [C06.c06_a1; C06.c06_a2] C06.c06_dflt C06.c06_mixed false.
Definition ex2_segs : list seg :=
  match o_reqs ex2_o with
  | [d1; d2] => [SReq C06.c06_a1 d1; S505; SReq C06.c06_a2 d2; SRefuse 400 (1, 1)%N false]
  | _ => []
  end.
Definition ex2_b (i : nat) : Bytes.bytes := seg_bytes (s "D") (nth i ex2_segs S505).
Example c01c_example_mixed :
  o_wire ex2_o = segs_bytes (s "D") ex2_segs /\ List.length ex2_segs = 4%nat /\
  (* the 505 cannot be written before request 0 is answered *)
  run ascii true (init ascii) [New ascii; New ascii; Write ascii 1 (ex2_b 1)] = None /\
  match run ascii true (init ascii)
          [New ascii; New ascii; Write ascii 0 (ex2_b 0); DropW ascii 0;
           Write ascii 1 (ex2_b 1); Flush ascii 1; DropW ascii 1;
           New ascii; New ascii; Write ascii 2 (firstn 25 (ex2_b 2)); Write ascii 2 (skipn 25 (ex2_b 2)); DropW ascii 2;
           Write ascii 3 (ex2_b 3); DropW ascii 3] with
  | Some cs => stream ascii cs = o_wire ex2_o
  | None => False
  end.
Proof.
  assert (H : o_wire ex2_o = segs_bytes (s "D") ex2_segs /\ List.length ex2_segs = 4%nat).
  { generalize C06.c06_example_decomposition. cbv zeta. unfold ex2_segs, ex2_o.
    destruct (o_reqs _) as [|d1 [|d2 [|]]]; try contradiction. intros H. split; [apply H|reflexivity]. }
  destruct H as [Hw Hl]. split; [exact Hw|]. split; [exact Hl|].
  assert (Hb : map (seg_bytes (s "D")) ex2_segs = map ex2_b (seq 0 4)) by exact (map_via_nth _ _ S505 _ Hl).
  rewrite Hw. unfold segs_bytes. rewrite Hb.
  generalize (@firstn_skipn ascii) ex2_b. generalize (@firstn ascii) (@skipn ascii). intros f g fg b.
  lazy. fold (@app ascii). rewrite <- (app_assoc _ (f 25 (b 2))), fg, <- !app_assoc, app_nil_r. split; reflexivity.
Qed.

(* a head whose Expect is not 100-continue: request::new_request fails AFTER the request's writer was taken
   (client.rs:140); that writer is dropped unwritten (block []), the 417 goes through one more writer.
   c01_any_interleaving_blocks applies with blocks = [[]; the 417] *)
Definition ex3_o : outcome :=
  serve fixed (s "D") [] C06.c06_dflt
    (s "POST /p HTTP/1.1" ++ CRLF ++ s "Content-Length: 3" ++ CRLF ++ s "Expect: nonsense" ++ CRLF ++ CRLF ++ s "abc") true.
Definition ex3_blocks : list Bytes.bytes := [[]; error_bytes (s "D") 417 (1, 1)%N true].
Definition ex3_ls : list (label ascii) :=
  [New ascii; New ascii; DropW ascii 0; Write ascii 1 (nth 1 ex3_blocks []); DropW ascii 1].
Example c01c_example_discarded_writer :
  o_wire ex3_o = segs_bytes (s "D") [SRefuse 417 (1, 1)%N true] /\ o_wire ex3_o = List.concat ex3_blocks /\
  List.length (filter (is_new ascii) ex3_ls) = List.length ex3_blocks /\
  writes_of ascii 0 ex3_ls = nth 0 ex3_blocks [] /\ writes_of ascii 1 ex3_ls = nth 1 ex3_blocks [] /\
  match run ascii true (init ascii) ex3_ls with
  | Some cs => stream ascii cs = o_wire ex3_o
  | None => False
  end.
Proof.
  assert (Hw : o_wire ex3_o = List.concat ex3_blocks) by (vm_compute; reflexivity).
  rewrite Hw. split; [reflexivity|]. unfold ex3_ls, ex3_blocks. generalize (error_bytes (s "D") 417 (1, 1)%N true). intros e.
  lazy. fold (@app ascii). rewrite app_nil_r. repeat split.
Qed.
