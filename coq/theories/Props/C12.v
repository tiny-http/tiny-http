(* Props/C12.v — C12: the request that ends the connection, and keep-alive.
   Proofs in Http/C12Facts.v, Http/C12ServeFacts.v, Http/C12ManyFacts.v, Http/C12BodyFacts.v. *)
From TH Require Import Base.Bytes Http.Response Http.Request Http.Body Http.Serve
  Http.ServeFacts Http.C12Facts Http.C12ServeFacts Http.C12ManyFacts Http.C12BodyFacts.

(* (a) last_request is the decision of the property text (ref_last, Http/C12Facts.v, section Spec:
       first Connection header, lower-cased, contains "close" or "upgrade"; or the version is 1.0 and
       it is not the case that the header is present and contains "keep-alive") *)
Theorem c12_last_request_table : forall ver hs, last_request ver hs = true <-> ref_last ver hs.
Proof. exact last_request_table. Qed.
Print Assumptions c12_last_request_table.

(* (b) one iteration of serve_loop on a request (version <= 1.1) that is the last one: it is
       delivered, answered, and the server closes; nothing in `rest` is read as a request.
       h = what the handler's action did (Http/ServeFacts.v: handle) *)
Theorem c12_last_closes :
  forall c date script dflt st wire reqs al ok m url ver hs rest kind bl ex rd st1 al1,
  read_head c (sbytes st) = HeadOk m url ver hs rest ->
  framing c hs = FrOk kind bl ex ->
  built_of kind rest (seof st) al = inl (Some (rd, st1, al1)) ->
  ver_gt_11 ver = false ->
  forall f, last_request ver hs = true ->
  let h := handle c date (act_of script dflt) m ver hs ex rd st1 al1 in
  h_end h <> EndBlock ->
  serve_loop c date (S f) script dflt st wire reqs al ok =
  mkO (frev reqs ++ [mkD m url ver hs bl (pieces_bytes (h_got h)) (h_end h)])
      (wire ++ h_w100 h ++ h_wfin h) CClosed (h_al4 h) (ok && h_m100 h && h_mfin h).
Proof. exact last_closes. Qed.
Print Assumptions c12_last_closes.

(* also when the handler's read blocks: exactly one more request, never a second one *)
Theorem c12_last_no_more :
  forall c date script dflt st wire reqs al ok m url ver hs rest kind bl ex rd st1 al1,
  read_head c (sbytes st) = HeadOk m url ver hs rest ->
  framing c hs = FrOk kind bl ex ->
  built_of kind rest (seof st) al = inl (Some (rd, st1, al1)) ->
  ver_gt_11 ver = false ->
  forall f, last_request ver hs = true ->
  let h := handle c date (act_of script dflt) m ver hs ex rd st1 al1 in
  o_reqs (serve_loop c date (S f) script dflt st wire reqs al ok)
    = frev reqs ++ [mkD m url ver hs bl (pieces_bytes (h_got h)) (h_end h)] /\
  o_end (serve_loop c date (S f) script dflt st wire reqs al ok)
    = (match h_end h with EndBlock => CHang | _ => CClosed end).
Proof.
  intros c date script dflt st wire reqs al ok m url ver hs rest kind bl ex rd st1 al1 Hh Hf Hb Hv f Hl h.
  rewrite (loop_served _ _ _ _ _ _ _ _ _ _ _ _ _ _ _ _ _ _ _ _ Hh Hf Hb Hv), Hl.
  subst h. destruct (h_end _); cbn [o_reqs o_end]; rewrite BytesFacts.frev_cons; split; reflexivity.
Qed.
Print Assumptions c12_last_no_more.

(* the bytes after a last request (without body) have no influence at all *)
Theorem c12_nothing_after_last : forall c date req m url ver hs bl ex,
  read_head c req = HeadOk m url ver hs [] -> framing c hs = FrOk KEmpty bl ex ->
  ver_gt_11 ver = false -> last_request ver hs = true ->
  forall script dflt t1 e1 t2 e2,
    let o1 := serve c date script dflt (req ++ t1) e1 in
    let o2 := serve c date script dflt (req ++ t2) e2 in
    o_reqs o1 = o_reqs o2 /\ o_wire o1 = o_wire o2 /\ o_end o1 = CClosed /\ o_end o2 = CClosed /\
    List.length (o_reqs o1) = 1%nat.
Proof.
  intros c date req m url ver hs bl ex Hh Hf Hv Hl script dflt t1 e1 t2 e2. cbv zeta.
  rewrite !(no_body_last_outcome c date req m url ver hs bl ex script dflt _ _ Hh Hf Hv Hl).
  cbn [o_reqs o_wire o_end]. auto.
Qed.
Print Assumptions c12_nothing_after_last.

(* the same for a last request WITH a body that has completely arrived (a small pre-read body, or
   an exact-length body of any size; complete_body: Http/C12BodyFacts.v): whatever the handler
   script does, nothing after the body has any influence, and the server closes *)
Theorem c12_nothing_after_last_body : forall c date head body m url ver hs kind bl ex,
  read_head c head = HeadOk m url ver hs [] -> framing c hs = FrOk kind bl ex ->
  complete_body kind body -> ver_gt_11 ver = false -> last_request ver hs = true ->
  forall script dflt t1 e1 t2 e2,
    let o1 := serve c date script dflt (head ++ body ++ t1) e1 in
    let o2 := serve c date script dflt (head ++ body ++ t2) e2 in
    o_reqs o1 = o_reqs o2 /\ o_wire o1 = o_wire o2 /\ o_modelled o1 = o_modelled o2 /\
    o_end o1 = CClosed /\ o_end o2 = CClosed /\ List.length (o_reqs o1) = 1%nat.
Proof. exact nothing_after_last_body. Qed.
Print Assumptions c12_nothing_after_last_body.

(* in every other case the loop goes on with the rest of the stream *)
Theorem c12_keepalive_continues :
  forall c date script dflt st wire reqs al ok m url ver hs rest kind bl ex rd st1 al1,
  read_head c (sbytes st) = HeadOk m url ver hs rest ->
  framing c hs = FrOk kind bl ex ->
  built_of kind rest (seof st) al = inl (Some (rd, st1, al1)) ->
  ver_gt_11 ver = false ->
  forall f, last_request ver hs = false ->
  let h := handle c date (act_of script dflt) m ver hs ex rd st1 al1 in
  h_end h <> EndBlock ->
  serve_loop c date (S f) script dflt st wire reqs al ok =
  serve_loop c date f (script_tl script) dflt (h_st4 h) (wire ++ h_w100 h ++ h_wfin h)
             (mkD m url ver hs bl (pieces_bytes (h_got h)) (h_end h) :: reqs)
             (h_al4 h) (ok && h_m100 h && h_mfin h).
Proof. exact keepalive_continues. Qed.
Print Assumptions c12_keepalive_continues.

(* (c) any number of complete simple requests (GET <target> HTTP/1.1, Host: h) sent back to back:
       all are delivered and answered in order, whatever the handler script does with each; with
       half-close (eof = true) the server then closes, otherwise the connection stays open *)
Theorem c12_halfclose_still_answered : forall date dflt script ts eof,
  Forall good_target ts ->
  serve fixed date script dflt (pipeline ts) eof =
  mkO (deliveries dflt script ts) (answers date dflt script ts)
      (if eof then CClosed else COpen) [] (all_ok date dflt script ts).
Proof. exact pipeline_all_answered. Qed.
Print Assumptions c12_halfclose_still_answered.

(* non-vacuity *)
Definition c12_close_req : bytes :=
  s "GET /x HTTP/1.1" ++ CRLF ++ s "Host: h" ++ CRLF ++ s "Connection: Close" ++ CRLF ++ CRLF.
Definition c12_close_hs : list header := [mkH (s "Host") (s "h"); mkH (s "Connection") (s "Close")].
Example c12_example_hyps :
  read_head fixed c12_close_req = HeadOk (s "GET") (s "/x") (1, 1)%N c12_close_hs [] /\
  framing fixed c12_close_hs = FrOk KEmpty None false /\
  ver_gt_11 (1, 1)%N = false /\ last_request (1, 1)%N c12_close_hs = true.
Proof. vm_compute. repeat split; reflexivity. Qed.
Example c12_example_ref_last : ref_last (1, 1)%N c12_close_hs.
Proof. apply c12_last_request_table. vm_compute. reflexivity. Qed.
Example c12_example_tail_ignored :
  let a := mkA [] (FRespond 200 (s "ok") true) in
  let o1 := serve fixed (s "D") [] a (c12_close_req ++ s "GET /y HTTP/1.1" ++ CRLF ++ CRLF) false in
  let o2 := serve fixed (s "D") [] a c12_close_req true in
  map d_url (o_reqs o1) = [s "/x"] /\ o_wire o1 = o_wire o2 /\ o_end o1 = CClosed.
Proof. vm_compute. repeat split; reflexivity. Qed.
Example c12_example_10_keepalive :
  last_request (1, 0)%N [] = true /\
  last_request (1, 0)%N [mkH (s "connection") (s "Keep-Alive")] = false /\
  last_request (1, 1)%N [] = false /\
  last_request (1, 1)%N [mkH (s "CONNECTION") (s "keep-alive, Upgrade")] = true.
Proof. vm_compute. repeat split; reflexivity. Qed.
Example c12_example_pipeline :
  Forall good_target [s "/a"; s "/b?q=1"; s "*"] /\
  let o := serve fixed (s "D") [mkA [(10%N, 4%nat)] FDrop] (mkA [] (FRespond 200 (s "ok") true))
             (pipeline [s "/a"; s "/b?q=1"; s "*"]) true in
  map d_url (o_reqs o) = [s "/a"; s "/b?q=1"; s "*"] /\ o_end o = CClosed /\ o_modelled o = true.
Proof. split; [repeat constructor|vm_compute; repeat split; reflexivity]. Qed.

Definition c12_post_head (n : bytes) : bytes :=
  s "POST /p HTTP/1.0" ++ CRLF ++ s "Content-Length: " ++ n ++ CRLF ++ CRLF.
Example c12_example_body_hyps :
  read_head fixed (c12_post_head (s "5"))
    = HeadOk (s "POST") (s "/p") (1, 0)%N [mkH (s "Content-Length") (s "5")] [] /\
  framing fixed [mkH (s "Content-Length") (s "5")] = FrOk (KBuffered 5) (Some 5%N) false /\
  complete_body (KBuffered 5) (s "hello") /\
  framing fixed [mkH (s "Content-Length") (s "1030")] = FrOk (KLimited 1030) (Some 1030%N) false /\
  complete_body (KLimited 1030) (repeat "a"%char 1030) /\
  last_request (1, 0)%N [mkH (s "Content-Length") (s "5")] = true.
Proof. vm_compute. repeat split; reflexivity. Qed.
Example c12_example_body_tail_ignored :
  let a := mkA [(3%N, 2%nat)] (FRespond 200 (s "ok") true) in
  let o := serve fixed (s "D") [] a (c12_post_head (s "5") ++ s "hello" ++ s "GET / HTTP/1.1" ++ CRLF ++ CRLF) false in
  map d_read (o_reqs o) = [s "hel"] /\ o_end o = CClosed /\
  o_wire o = o_wire (serve fixed (s "D") [] a (c12_post_head (s "5") ++ s "hello") true).
Proof. vm_compute. repeat split; reflexivity. Qed.
