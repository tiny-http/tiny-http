(* Http/C18Facts.v — C18: the interim 100 Continue response. When the expectation is recognised,
   what the interim response is, and what the handler and the delivering step put on the wire. *)
From TH Require Import Base.Bytes Base.BytesFacts Http.Response Http.Request Http.Body Http.Serve
  Http.ServeFacts Http.FramingBodyFacts Http.C12Facts.
Open Scope char_scope.

Lemma eq_ci_spec a b : eq_ci a b = true <-> lower a = lower b.
Proof. unfold eq_ci. apply beq_eq. Qed.

(* in terms of the header list: the first header named Expect, compared without regard to case *)
Theorem expect_recognised c hs : framing c hs <> FrBadContentLength ->
  (forall k bl e, framing c hs = FrOk k bl e ->
     (e = true <-> exists v, first_value (s "Expect") hs v /\ lower v = lower (s "100-continue"))) /\
  (framing c hs = FrExpectationFailed <->
     exists v, first_value (s "Expect") hs v /\ lower v <> lower (s "100-continue")).
Proof.
  rewrite framing_eq. destruct (checked_length c hs) as [cl0|]; [intros _|contradiction].
  rewrite framing_rest_failed.
  rewrite (first_value_ex "Expect" hs (fun v => lower v <> lower (s "100-continue"))).
  split.
  - intros k bl e (H & _)%framing_rest_ok.
    rewrite (first_value_ex "Expect" hs (fun v => lower v = lower (s "100-continue"))).
    revert H. unfold expectation.
    destruct (header_value "Expect" hs) as [v|]; [destruct (eq_ci v _) eqn:E|]; intros [= <-].
    + apply eq_ci_spec in E. now split.
    + now split.
  - unfold expectation. destruct (header_value "Expect" hs) as [v|]; [destruct (eq_ci v _) eqn:E|].
    + apply eq_ci_spec in E. now split.
    + split; [|reflexivity]. intros _ L. apply eq_ci_spec in L. congruence.
    + now split.
Qed.

Definition interim (date : bytes) (ver : version) (hs : list header) : bytes :=
  fst (render date (empty_response 100) ver hs true None).

Lemma interim_render date ver hs :
  render date (empty_response 100) ver hs true None =
  (render_head ver 100 [mkH (s "Server") (s "tiny-http (Rust)"); mkH (s "Date") date;
                        mkH (s "Content-Length") (s "0")], true).
Proof.
  unfold render, raw_print, choose_te. change (empty_response 100) with (mkR 100 [] [] (Some 0%N) None).
  cbn [status data_length].
  assert (H : raw_print_with Identity date (mkR 100 [] [] (Some 0%N) None) ver true None =
              render_head ver 100 [mkH (s "Server") (s "tiny-http (Rust)"); mkH (s "Date") date;
                                   mkH (s "Content-Length") (s "0")]).
  { unfold raw_print_with, final_headers. cbn [status rheaders data_length existsb rbody orb].
    rewrite app_nil_r. reflexivity. }
  destruct (ver_le ver (1, 0)%N); [|change ((100 <? 200)%N || (100 =? 204)%N) with true; cbn iota];
    rewrite H; reflexivity.
Qed.

Definition asks_body (act : action) : bool := match a_reads act with [] => false | _ => true end.

Lemma w100_of_cases date act ex ver hs :
  w100_of date act ex ver hs = (if ex && asks_body act then interim date ver hs else [], true).
Proof.
  unfold w100_of, asks_body, interim. destruct (a_reads act); [now rewrite andb_false_r|].
  destruct ex; [|reflexivity]. rewrite interim_render. reflexivity.
Qed.

Definition step_wire (r : step_result) : bytes :=
  match r with SDone o => o_wire o | SCont _ _ w _ _ _ => w end.
Definition final_bytes (date : bytes) (act : action) (m : bytes) (ver : version) (hs : list header) : bytes :=
  fst (fin_wire date (a_finish act) m ver hs).

Section Handle.
Variables (c : cfg) (date : bytes) (act : action) (m : bytes) (ver : version) (hs : list header)
          (ex : bool) (rd : breader) (st1 : stream) (al1 : allocs).
Local Notation h := (handle c date act m ver hs ex rd st1 al1).

Lemma handle_interim : h_w100 h = if ex && asks_body act then interim date ver hs else [].
Proof. rewrite (proj1 (handle_sent c date act m ver hs ex rd st1 al1)), w100_of_cases. reflexivity. Qed.

Lemma handle_final : h_wfin h = final_bytes date act m ver hs.
Proof. apply (handle_sent c date act m ver hs ex rd st1 al1). Qed.

(* without reads the handler's loop cannot block, so the final answer is always there *)
Lemma handle_no_reads_end : a_reads act = [] -> (forall p, a_finish act <> FUpgrade p) -> h_end h = EndCount.
Proof.
  intros Hr Hfin.
  destruct (handle_reads c date act m ver hs ex rd st1 al1)
    as (got & e & rd2 & st2 & al2 & rd3 & st3 & E1 & E2 & _).
  assert (Hu : finish_reads (a_finish act) = []).
  { destruct (a_finish act) as [code body declared| |data|proto]; try reflexivity. destruct (Hfin proto eq_refl). }
  rewrite Hr in E1. rewrite Hu in E2. cbn [do_reads] in E1, E2. congruence.
Qed.
End Handle.

Section Deliver.
Variables (c : cfg) (date : bytes) (script : list action) (dflt : action)
          (wire : bytes) (reqs : list delivered) (ok : bool)
          (m url : bytes) (ver : version) (hs : list header) (bl : option N) (ex : bool)
          (rd : breader) (st1 : stream) (al1 : allocs).
Local Notation act := (act_of script dflt).
Local Notation h := (handle c date act m ver hs ex rd st1 al1).
Local Notation dstep := (deliver_step c date script dflt wire reqs ok m url ver hs bl ex rd st1 al1).

Theorem deliver_wire : ver_gt_11 ver = false ->
  step_wire dstep =
  wire ++ (if ex && asks_body act then interim date ver hs else [])
       ++ (match h_end h with EndBlock => [] | _ => final_bytes date act m ver hs end).
Proof.
  intros Hv. rewrite deliver_served, handle_interim, handle_final by exact Hv.
  (* EndBlock, the last constructor of read_end, is the one end after which nothing final is written *)
  destruct (h_end h); [..|cbn [step_wire o_wire]; now rewrite app_nil_r];
    destruct (last_request ver hs); reflexivity.
Qed.
End Deliver.
