(* Props/C15.v — C15: the client disappears. Proofs in Http/C15Facts.v, Http/ServeStreamFacts.v
   (see also Props/C12.v, c12_halfclose_still_answered: after an orderly close the complete
   requests are still delivered and answered before the server closes). *)
From TH Require Import Base.Bytes Http.Response Http.Request Http.Body Http.Serve
  Http.ServeFacts Http.ServeStreamFacts Http.C15Facts Http.C12ManyFacts.
From TH Require Http.ServeRefuseFacts.
From Coq Require Import Lia.

(* (a) the head reader reports "stream ended first": nothing more is delivered, nothing is sent *)
Theorem c15_incomplete_head_not_delivered : forall c date f script dflt st wire reqs al ok,
  read_head c (sbytes st) = HeadEof ->
  serve_loop c date (S f) script dflt st wire reqs al ok =
  mkO (frev reqs) wire (if seof st then CClosed else COpen) al ok.
Proof. exact ServeRefuseFacts.step_eof. Qed.
Print Assumptions c15_incomplete_head_not_delivered.

(* ... and that is what happens for EVERY cut strictly inside a head: if x ++ t begins with a
   complete head after which fewer than |t| bytes remain, x alone gives HeadEof *)
Theorem c15_head_cut : forall c x t m url ver hs rest,
  read_head c (x ++ t) = HeadOk m url ver hs rest -> (List.length rest < List.length t)%nat ->
  read_head c x = HeadEof.
Proof. exact read_head_cut. Qed.
Print Assumptions c15_head_cut.

Theorem c15_serve_cut_in_head : forall date script dflt x t eof m url ver hs rest,
  read_head fixed (x ++ t) = HeadOk m url ver hs rest -> (List.length rest < List.length t)%nat ->
  serve fixed date script dflt x eof = mkO [] [] (if eof then CClosed else COpen) [] true.
Proof.
  intros date script dflt x t eof m url ver hs rest H Hl. unfold serve.
  now rewrite ServeRefuseFacts.step_eof by exact (read_head_cut fixed x t m url ver hs rest H Hl).
Qed.
Print Assumptions c15_serve_cut_in_head.

(* a line is complete iff a CR LF pair has arrived *)
Theorem c15_read_line_none_iff : forall x,
  read_line x = None <-> ~ (exists a b, x = a ++ CR :: LF :: b).
Proof.
  intros x. unfold read_line. rewrite read_line_aux_none. split; [intros [_ H]; exact H|].
  intros H. split; [intros [? _]; discriminate|exact H].
Qed.
Print Assumptions c15_read_line_none_iff.

(* (b) head complete, small body (pre-read before delivery) not completely there: not delivered *)
Theorem c15_incomplete_buffered_body_not_delivered :
  forall c date f script dflt st wire reqs al ok m url ver hs rest n bl ex,
  read_head c (sbytes st) = HeadOk m url ver hs rest ->
  framing c hs = FrOk (KBuffered n) bl ex -> (len rest < n)%N ->
  serve_loop c date (S f) script dflt st wire reqs al ok =
  mkO (frev reqs) wire (if seof st then CClosed else COpen) (n :: al) ok.
Proof.
  intros c date f script dflt st wire reqs al ok m url ver hs rest n bl ex Hh Hf Hl.
  apply serve_loop_done.
  now rewrite (step_framed _ _ _ _ _ _ _ _ _ _ _ _ _ _ Hh _ _ _ Hf), (built_of_incomplete _ _ _ _ Hl).
Qed.
Print Assumptions c15_incomplete_buffered_body_not_delivered.

(* (c) once the client has closed, no application read blocks, whatever the reader ... *)
Theorem c15_body_reads_terminate : forall c n r st al, seof st = true ->
  fst (fst (fst (body_read c n r st al))) <> RBlock /\ seof (snd (fst (body_read c n r st al))) = true.
Proof.
  intros c n r st al He. pose proof (body_read_noblock c n r st al He) as H.
  destruct (body_read c n r st al) as [[[[d| | |] r1] st1] al1]; [..|destruct H]; (split; [discriminate|exact H]).
Qed.
Print Assumptions c15_body_reads_terminate.

(* ... so every handler script's read loops end (not in EndBlock) ... *)
Theorem c15_handler_loop_ends : forall c date act m ver hs expects rd st1 al1, seof st1 = true ->
  h_end (handle c date act m ver hs expects rd st1 al1) <> EndBlock /\
  seof (h_st4 (handle c date act m ver hs expects rd st1 al1)) = true.
Proof. exact handle_eof. Qed.
Print Assumptions c15_handler_loop_ends.

(* ... and the server never hangs: for every input after which the client has closed, every
   script, it ends by closing the connection *)
Theorem c15_serve_eof_closes : forall date script dflt input,
  o_end (serve fixed date script dflt input true) = CClosed.
Proof.
  intros date script dflt input. unfold serve.
  apply serve_loop_eof; [reflexivity|unfold slen; cbn [sbytes]; lia|reflexivity].
Qed.
Print Assumptions c15_serve_eof_closes.

(* every cut of a pipeline of simple requests (GET <target> HTTP/1.1, Host: h) inside the head of
   the next one: exactly the complete requests are delivered and answered, then the server closes
   (orderly close) or waits (no close yet); the incomplete request is never delivered *)
Theorem c15_pipeline_cut : forall date dflt script ts t x y eof,
  Forall good_target ts -> good_target t -> sr_bytes t = x ++ y -> y <> [] ->
  serve fixed date script dflt (pipeline ts ++ x) eof =
  mkO (deliveries dflt script ts) (answers date dflt script ts)
      (if eof then CClosed else COpen) [] (all_ok date dflt script ts).
Proof.
  intros date dflt script ts t x y eof H Ht Hxy Hy. apply serve_pipeline; [exact H|].
  apply (read_head_proper_prefix fixed x y GETB t (1, 1)%N HOSTH); [|exact Hy].
  rewrite <- Hxy. apply sr_head, Ht.
Qed.
Print Assumptions c15_pipeline_cut.

(* non-vacuity *)
Example c15_example_pipeline_cut :
  Forall good_target [s "/a"; s "/b"] /\ good_target (s "/c") /\
  sr_bytes (s "/c") = firstn 20 (sr_bytes (s "/c")) ++ skipn 20 (sr_bytes (s "/c")) /\
  skipn 20 (sr_bytes (s "/c")) <> [] /\
  map d_url (o_reqs (serve fixed (s "D") [] (mkA [] (FRespond 200 (s "ok") true))
                       (pipeline [s "/a"; s "/b"] ++ firstn 20 (sr_bytes (s "/c"))) true)) = [s "/a"; s "/b"].
Proof. split; [repeat constructor|]. vm_compute. repeat split; try reflexivity. discriminate. Qed.
Definition c15_full : bytes :=
  s "POST /a HTTP/1.1" ++ CRLF ++ s "Host: h" ++ CRLF ++ s "Content-Length: 5" ++ CRLF ++ CRLF ++ s "hello".
Example c15_example_cut :
  (* the cut: after "POST /a HTTP/1.1\r\nHost: h\r" *)
  let x := firstn 26 c15_full in let t := skipn 26 c15_full in
  x ++ t = c15_full /\
  (exists hs, read_head fixed (x ++ t) = HeadOk (s "POST") (s "/a") (1, 1)%N hs (s "hello")) /\
  Nat.ltb (List.length (s "hello")) (List.length t) = true /\
  serve fixed (s "D") [] (mkA [] FDrop) x true = mkO [] [] CClosed [] true.
Proof. vm_compute. repeat split; try reflexivity. eexists. reflexivity. Qed.
Example c15_example_short_body :
  let x := firstn (List.length c15_full - 2) c15_full in
  let o := serve fixed (s "D") [] (mkA [] FDrop) x true in
  o_reqs o = [] /\ o_wire o = [] /\ o_end o = CClosed /\
  o_end (serve fixed (s "D") [] (mkA [] FDrop) x false) = COpen.
Proof. vm_compute. repeat split; reflexivity. Qed.
(* a large body cut short, the handler reads it: the read ends (EndEof/EndErr), the server closes *)
Example c15_example_reads_end :
  let x := s "POST /a HTTP/1.1" ++ CRLF ++ s "Content-Length: 5000" ++ CRLF ++ CRLF ++ s "hel" in
  let o := serve fixed (s "D") [] (mkA [(5000%N, 64%nat)] (FRespond 200 [] true)) x true in
  map d_read (o_reqs o) = [s "hel"] /\ map d_end (o_reqs o) <> [EndBlock] /\ o_end o = CClosed.
Proof. vm_compute. repeat split; try reflexivity. discriminate. Qed.
