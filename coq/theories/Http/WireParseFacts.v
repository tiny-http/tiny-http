(* Http/WireParseFacts.v — C06 seen from the client: the bytes a delivered request contributes are
   read back by the independent RFC 7230 parser (ClientSpec.v) as [an optional 100 Continue and]
   exactly one final response with the status and body of the action (500 and no body for a
   dropped request); and the output for a pipeline of k requests splits into exactly k responses. *)
From TH Require Import Base.Bytes Http.Response Http.Serve Http.ServeFacts Http.ClientSpec Http.C04Facts
  Http.C12ServeFacts Http.C12ManyFacts Http.C18Facts Http.WireFacts.
From Coq Require Import Lia.
Open Scope char_scope.

(* the actions that answer with a response built by the library *)
Definition answerable (a : action) : Prop :=
  match a_finish a with
  | FRespond code body _ => (100 <= code <= 999)%N /\ (len body < USIZE_BOUND)%N
  | FDrop => True
  | FWriter _ | FUpgrade _ => False
  end.
Definition answer_response (a : action) : response :=
  match a_finish a with
  | FRespond code body declared => new_response code [] body (if declared then Some (len body) else None)
  | _ => empty_response 500
  end.
(* what the client must recover: (status, body); no body in answer to HEAD and with 1xx/204/304 *)
Definition expected_answer (head : bool) (a : action) : N * bytes :=
  match a_finish a with
  | FRespond code body _ => (code, if head || bodyless_status code then [] else body)
  | _ => (500%N, [])
  end.

Lemma new_response_wf0 code body dl : (100 <= code <= 999)%N -> (len body < USIZE_BOUND)%N ->
  dl = None \/ dl = Some (len body) -> wf_response (new_response code [] body dl).
Proof. intros H1 H2 H3. apply (built_wf code [] body []); auto. Qed.

Lemma answerable_wf a : answerable a -> wf_response (answer_response a).
Proof.
  unfold answerable, answer_response. destruct (a_finish a) as [code body declared| |data|proto]; try contradiction.
  - intros [H1 H2]. apply new_response_wf0; auto. destruct declared; auto.
  - intros _. apply new_response_wf0; [lia|reflexivity|now right].
Qed.

Lemma answer_expected head a : answerable a ->
  (status (answer_response a), expected_body head (answer_response a)) = expected_answer head a.
Proof.
  unfold answerable, answer_response, expected_answer, expected_body.
  destruct (a_finish a) as [code body declared| |data|proto]; try contradiction; intros _.
  - reflexivity.
  - change (status (empty_response 500)) with 500%N. change (rbody (empty_response 500)) with (@nil ascii).
    now destruct (head || bodyless_status 500).
Qed.

Lemma final_bytes_answer date a m ver hs : answerable a ->
  final_bytes date a m ver hs = fst (render date (answer_response a) ver hs (is_head m) None).
Proof.
  unfold answerable, answer_response, final_bytes, fin_wire.
  destruct (a_finish a) as [code body declared| |data|proto]; try contradiction; reflexivity.
Qed.

(* within the modelled TE domain a response is always written, with one of the two codings *)
Lemma render_modelled date r ver hs nb w : te_wish hs = Some w ->
  exists c, render date r ver hs nb None = (raw_print_with c date r ver nb None, true).
Proof.
  intros H. unfold render, raw_print, choose_te.
  destruct (ver_le ver (1, 0)%N); [eauto|].
  destruct ((status r <? 200)%N || (status r =? 204)%N); [eauto|]. rewrite H.
  destruct w as [c|]; [eauto|]. destruct (data_length r) as [n|]; [destruct (chunked_threshold r <=? n)%N|]; eauto.
Qed.

Theorem final_bytes_parse date a m ver hs w rest :
  answerable a -> C04Facts.nolf date = true -> In ver versions -> te_wish hs = Some w ->
  exists p, parse_response (is_head m) (final_bytes date a m ver hs ++ rest) = Some p /\
            (p_status p, p_body p) = expected_answer (is_head m) a /\ p_rest p = rest /\
            p_delim p <> UntilClose.
Proof.
  intros Ha Hd Hv Hw. rewrite final_bytes_answer by exact Ha.
  destruct (render_modelled date (answer_response a) ver hs (is_head m) w Hw) as (c & ->). cbn [fst].
  destruct (roundtrip c date (answer_response a) ver (is_head m) rest (answerable_wf a Ha) Hd Hv)
    as (p & Hp & Hs & Hb & Hr & Hdl).
  exists p. rewrite Hs, Hb, answer_expected by exact Ha. auto.
Qed.

Lemma interim_print date ver hs head :
  interim date ver hs = raw_print_with Identity date (empty_response 100) ver head None.
Proof.
  unfold interim. rewrite interim_render. cbn [fst].
  rewrite (no_body_bytes Identity date (empty_response 100) ver head None)
    by (change (no_body_status (status (empty_response 100))) with true; apply orb_true_r).
  change (empty_response 100) with (mkR 100 [] [] (Some 0%N) None).
  unfold final_headers. cbn [status rheaders data_length existsb rbody orb]. reflexivity.
Qed.

Theorem interim_parse date ver hs head rest : C04Facts.nolf date = true -> In ver versions ->
  exists p, parse_response head (interim date ver hs ++ rest) = Some p /\
            p_status p = 100%N /\ p_body p = [] /\ p_rest p = rest.
Proof.
  intros Hd Hv. rewrite (interim_print date ver hs head).
  assert (Hwf : wf_response (empty_response 100)) by (apply new_response_wf0; [lia|reflexivity|now right]).
  destruct (roundtrip Identity date (empty_response 100) ver head rest Hwf Hd Hv) as (p & Hp & Hs & Hb & Hr & _).
  exists p. repeat split; auto. rewrite Hb. unfold expected_body.
  change (bodyless_status (status (empty_response 100))) with true. now rewrite orb_true_r.
Qed.

Lemma act_wire_parse date a rest : answerable a -> C04Facts.nolf date = true ->
  exists p, parse_response false (act_wire date a ++ rest) = Some p /\
            (p_status p, p_body p) = expected_answer false a /\ p_rest p = rest /\
            p_delim p <> UntilClose.
Proof.
  intros Ha Hd.
  assert (E : act_wire date a = final_bytes date a GETB (1, 1)%N HOSTH)
    by (unfold act_wire, wire_empty, final_bytes; now rewrite w100_of_cases).
  rewrite E. change false with (is_head GETB).
  apply (final_bytes_parse date a GETB (1, 1)%N HOSTH None rest Ha Hd); [|reflexivity].
  unfold versions. cbn [In]. auto.
Qed.

Definition status_body (p : parsed) : N * bytes := (p_status p, p_body p).

Lemma answers_parse date dflt : forall ts script, C04Facts.nolf date = true ->
  Forall answerable (used_actions script dflt (List.length ts)) ->
  exists ps, parse_stream (repeat false (List.length ts)) (answers date dflt script ts) = (ps, []) /\
             map status_body ps = map (expected_answer false) (used_actions script dflt (List.length ts)) /\
             Forall (fun p => p_delim p <> UntilClose) ps.
Proof.
  induction ts as [|t ts IH]; intros script Hd Hall; cbn [List.length repeat answers used_actions parse_stream].
  - exists []. repeat split; constructor.
  - cbn [List.length used_actions] in Hall. inversion Hall as [|a0 l0 Ha Hrest]; subst.
    destruct (IH (script_tl script) Hd Hrest) as (ps & Hps & Hmap & Hdl).
    destruct (act_wire_parse date (act_of script dflt) (answers date dflt (script_tl script) ts) Ha Hd)
      as (p & Hp & Hsb & Hr & Hpd).
    exists (p :: ps).
    destruct (act_wire date (act_of script dflt) ++ answers date dflt (script_tl script) ts) as [|b x] eqn:Ex.
    + discriminate Hp.
    + rewrite Hp, Hr, Hps. cbn [map]. unfold status_body at 1. rewrite Hsb, Hmap.
      repeat split. constructor; assumption.
Qed.

Lemma deliveries_urls dflt : forall ts script, map d_url (deliveries dflt script ts) = ts.
Proof.
  induction ts as [|t ts IH]; intros script; cbn [deliveries map]; [reflexivity|].
  rewrite IH. reflexivity.
Qed.
