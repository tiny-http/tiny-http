(* Props/C02.v — request head fidelity. (1) The head parser: every well-formed HTTP/0.9, 1.0 or 1.1 request head
   (Http/HeadFacts.v: req_head, wf_head, render_req_head), written with arbitrary optional whitespace
   around each field value and followed by arbitrary bytes, is parsed by the repaired tree into
   exactly the method, target, version and header list that were sent. (2) `serve`: a run of such
   requests is delivered request by request as sent. *)
From TH Require Import Base.Bytes Http.Response Http.Request Http.HeadFacts.
From TH Require Import Http.Body Http.Serve Http.ServeGoodFacts.
Open Scope char_scope.

Theorem c02_head_roundtrip : forall (r : req_head) (ows : list (bytes * bytes)) (tail : bytes),
  wf_head r = true -> wf_ows ows = true ->
  read_head fixed (render_req_head r ows ++ tail)
  = HeadOk (rq_method r) (rq_target r) (rq_version r)
           (map (fun f => mkH (fst f) (snd f)) (rq_headers r)) tail.
Proof. exact head_roundtrip. Qed.
Print Assumptions c02_head_roundtrip.

(* nothing is normalised or merged: what is delivered determines the request that was sent
   (and where its head ended), whatever the optional whitespace was *)
Theorem c02_no_normalisation : forall r1 r2 o1 o2 t1 t2,
  wf_head r1 = true -> wf_head r2 = true -> wf_ows o1 = true -> wf_ows o2 = true ->
  read_head fixed (render_req_head r1 o1 ++ t1) = read_head fixed (render_req_head r2 o2 ++ t2) ->
  r1 = r2 /\ t1 = t2.
Proof.
  intros r1 r2 o1 o2 t1 t2 W1 W2 O1 O2.
  rewrite (head_roundtrip r1 o1 t1 W1 O1), (head_roundtrip r2 o2 t2 W2 O2).
  intros H. injection H as Hm Ht Hv Hh Htl. apply map_field_header_inj in Hh.
  destruct r1 as [m1 u1 v1 h1], r2 as [m2 u2 v2 h2]. cbn [rq_method rq_target rq_version rq_headers] in *. now subst.
Qed.
Print Assumptions c02_no_normalisation.

(* the hypotheses are satisfiable: three headers with a duplicate name, an empty value, a value with
   inner blanks and colons, optional whitespace with tabs, percent-escapes left alone *)
Definition c02_req : req_head :=
  mkRq (s "PoST") (s "/a%20b/../c?x=1&y=%2F#f") (1, 1)%N
       [(s "X-Dup", s "one:  two : three"); (s "x-dup", []); (s "Host", s "EXAMPLE.org:80")].
Definition c02_ows : list (bytes * bytes) :=
  [([SP; HT], [HT]); ([HT; HT; SP], [SP]); ([], [])].
Example c02_example_wf : wf_head c02_req = true /\ wf_ows c02_ows = true.
Proof. vm_compute. split; reflexivity. Qed.
Example c02_example_rendering :
  render_req_head c02_req c02_ows =
  s "PoST /a%20b/../c?x=1&y=%2F#f HTTP/1.1" ++ CRLF ++
  s "X-Dup:" ++ [SP; HT] ++ s "one:  two : three" ++ [HT] ++ CRLF ++
  s "x-dup:" ++ [HT; HT; SP; SP] ++ CRLF ++
  s "Host:EXAMPLE.org:80" ++ CRLF ++ CRLF.
Proof. vm_compute. reflexivity. Qed.
Example c02_example_read :
  read_head fixed (render_req_head c02_req c02_ows ++ s "BODY")
  = HeadOk (s "PoST") (s "/a%20b/../c?x=1&y=%2F#f") (1, 1)%N
           [mkH (s "X-Dup") (s "one:  two : three"); mkH (s "x-dup") []; mkH (s "Host") (s "EXAMPLE.org:80")]
           (s "BODY").
Proof. vm_compute. reflexivity. Qed.

(* why wf_value speaks of whitespace rather than of SP/HTAB only: str::trim also removes VT and FF,
   which are not field-content bytes in the first place *)
Example c02_vt_is_trimmed :
  read_head fixed (s "GET / HTTP/1.1" ++ CRLF ++ s "A: " ++ ["011"; "x"] ++ CRLF ++ CRLF)
  = HeadOk (s "GET") (s "/") (1, 1)%N [mkH (s "A") (s "x")] [].
Proof. vm_compute. reflexivity. Qed.

(* what the application is handed: a run of well-formed requests without a body that keep the
   connection alive (quiet_run, Http/ServeGoodFacts.v) is delivered request by request exactly as
   sent, in order, nothing added — whatever the handler does with each of them *)
Theorem c02_delivered_as_sent : forall date script dflt eof goods x,
  quiet_run goods = true -> read_head fixed x = HeadEof ->
  exists w ds ok', Forall2 delivered_as (map fst goods) ds /\
    serve fixed date script dflt (render_run goods ++ x) eof
    = mkO ds w (if eof then CClosed else COpen) [] ok'.
Proof.
  intros date script dflt eof goods x Q R. apply (serve_run_then_done _ _ _ _ _ _ (fun w => w) _ Q).
  intros. now apply ServeRefuseFacts.step_eof.
Qed.
Print Assumptions c02_delivered_as_sent.

Example c02_example_quiet : quiet_run [(c02_req, c02_ows); (c02_req, [])] = true /\ read_head fixed [] = HeadEof.
Proof. vm_compute. split; reflexivity. Qed.
