(* Http/FramingBodyFacts.v — `framing` (request.rs:170-301, `new_request`) taken apart into the
   Content-Length check, the Expect check and the choice of body reader; everything `framing fixed`
   assigns to a header list it accepts (framing_fixed_char; Props/C03.v reads the cases off it), and
   when it accepts (framing_fixed_rest). *)
From TH Require Import Base.Bytes Http.Response Http.Request.

Definition wants_upgrade (hs : list header) : bool :=
  match header_value "Connection" hs with
  | Some v => contains_sub (s "upgrade") (lower v)
  | None => false
  end.

Definition kind_of (upgrade : bool) (bl : option N) (te : bool) (ex : bool) : body_kind :=
  if upgrade then KUpgrade
  else match bl with
       | Some n => if (n =? 0)%N then KEmpty
                   else if (n <=? 1024)%N && negb ex then KBuffered n else KLimited n
       | None => if te then KChunked else KEmpty
       end.

(* Some None = no such header, None = refused (D9) *)
Definition checked_length (c : cfg) (hs : list header) : option (option N) :=
  match header_value "Content-Length" hs with
  | None => Some None
  | Some v => if fix_d9 c then
                match v with
                | [] => None
                | _ => if forallb is_digit v then
                         match parse_dec v with Some n => Some (Some n) | None => None end
                       else None
                end
              else Some (parse_usize v)
  end.

(* None: an expectation the server does not support *)
Definition expectation (hs : list header) : option bool :=
  match header_value "Expect" hs with
  | None => Some false
  | Some v => if eq_ci v (s "100-continue") then Some true else None
  end.

Definition framing_rest (hs : list header) (cl0 : option N) : framing_result :=
  let bl := match header_value "Transfer-Encoding" hs with Some _ => None | None => cl0 end in
  let te := match header_value "Transfer-Encoding" hs with Some _ => true | None => false end in
  match expectation hs with
  | None => FrExpectationFailed
  | Some e => FrOk (kind_of (wants_upgrade hs) bl te e) bl e
  end.

Lemma framing_eq c hs :
  framing c hs = match checked_length c hs with
                 | None => FrBadContentLength
                 | Some cl0 => framing_rest hs cl0
                 end.
Proof.
  unfold framing, checked_length, framing_rest, expectation, kind_of, wants_upgrade.
  destruct (header_value "Transfer-Encoding" hs); reflexivity.
Qed.

Lemma expectation_none hs :
  expectation hs = None <-> exists v, header_value "Expect" hs = Some v /\ eq_ci v (s "100-continue") = false.
Proof.
  unfold expectation. destruct (header_value "Expect" hs) as [v|]; [destruct (eq_ci v _) eqn:E|].
  - split; [discriminate|]. intros (v' & [= <-] & E'). congruence.
  - split; [exists v; auto|reflexivity].
  - split; [discriminate|]. intros (v' & H & _). discriminate.
Qed.

Lemma framing_rest_ok hs cl0 k bl e : framing_rest hs cl0 = FrOk k bl e ->
  expectation hs = Some e /\
  bl = match header_value "Transfer-Encoding" hs with Some _ => None | None => cl0 end /\
  k = kind_of (wants_upgrade hs) bl
        match header_value "Transfer-Encoding" hs with Some _ => true | None => false end e.
Proof.
  unfold framing_rest. destruct (expectation hs) as [e'|]; [|discriminate].
  intros H. injection H as <- <- <-. auto.
Qed.

Lemma framing_rest_failed hs cl0 : framing_rest hs cl0 = FrExpectationFailed <-> expectation hs = None.
Proof. unfold framing_rest. destruct (expectation hs); split; congruence. Qed.

Lemma framing_kind c hs k bl e : framing c hs = FrOk k bl e ->
  exists upgrade te, k = kind_of upgrade bl te e.
Proof.
  rewrite framing_eq. destruct (checked_length c hs) as [cl0|]; [|discriminate].
  intros (_ & _ & ->)%framing_rest_ok. eauto.
Qed.

Lemma kind_of_buffered up bl te ex n :
  kind_of up bl te ex = KBuffered n <->
  up = false /\ bl = Some n /\ ex = false /\ n <> 0%N /\ (n <= 1024)%N.
Proof.
  unfold kind_of. split.
  - destruct up; [discriminate|]. destruct bl as [n'|]; [|destruct te; discriminate].
    destruct (N.eqb_spec n' 0); [discriminate|]. destruct (N.leb_spec n' 1024); [|discriminate].
    destruct ex; [discriminate|]. intros [= <-]. auto.
  - intros (-> & -> & -> & H0 & H1). apply N.eqb_neq in H0. apply N.leb_le in H1. now rewrite H0, H1.
Qed.

Lemma framing_fixed_char hs k bl ex : framing fixed hs = FrOk k bl ex ->
  exists cl0 : option N,
    match header_value "Content-Length" hs with
    | None => cl0 = None
    | Some v => v <> [] /\ forallb is_digit v = true /\ parse_dec v = cl0 /\ cl0 <> None
    end /\
    bl = match header_value "Transfer-Encoding" hs with Some _ => None | None => cl0 end /\
    ex = match header_value "Expect" hs with Some _ => true | None => false end /\
    k = kind_of (wants_upgrade hs) bl
          match header_value "Transfer-Encoding" hs with Some _ => true | None => false end ex.
Proof.
  rewrite framing_eq. destruct (checked_length fixed hs) as [cl0|] eqn:C; [|discriminate].
  intros (E & Hbl & Hk)%framing_rest_ok. exists cl0. split; [|split; [exact Hbl|split; [|exact Hk]]].
  - revert C. unfold checked_length. cbn [fix_d9 fixed].
    destruct (header_value "Content-Length" hs) as [[|c v]|]; [discriminate| |now intros [= <-]].
    destruct (forallb is_digit (c :: v)); [|discriminate].
    destruct (parse_dec (c :: v)); [|discriminate]. intros [= <-]. repeat split; discriminate.
  - revert E. unfold expectation.
    destruct (header_value "Expect" hs) as [x|]; [destruct (eq_ci x _)|]; congruence.
Qed.

Lemma framing_cl hs v k bl ex : header_value "Transfer-Encoding" hs = None ->
  header_value "Content-Length" hs = Some v -> framing fixed hs = FrOk k bl ex ->
  exists n, parse_dec v = Some n /\ v <> [] /\ forallb is_digit v = true /\ bl = Some n /\
            k = kind_of (wants_upgrade hs) (Some n) false ex.
Proof.
  intros Hte Hcl H. apply framing_fixed_char in H as (cl0 & Hc & Hbl & _ & Hk). rewrite Hte, Hcl in *.
  destruct Hc as (Hne & Hd & Hp & Hn). destruct cl0 as [n|]; [|congruence]. exists n. subst bl. auto.
Qed.

Definition declared (hs : list header) : option N :=
  match header_value "Content-Length" hs with Some v => parse_dec v | None => None end.

(* the converse of framing_fixed_char: parse_dec v <> None says the digits denote a number below 2^64
   (AheadFacts.cl_value, FramingFacts.cl_ok) *)
Lemma framing_fixed_rest hs :
  match header_value "Content-Length" hs with
  | None => True
  | Some v => v <> [] /\ forallb is_digit v = true /\ parse_dec v <> None
  end ->
  framing fixed hs = framing_rest hs (declared hs).
Proof.
  intros Hcl. rewrite framing_eq. unfold checked_length, declared. cbn [fix_d9 fixed].
  destruct (header_value "Content-Length" hs) as [v|]; [|reflexivity].
  destruct Hcl as (Hne & Hd & Hp). destruct v as [|c v]; [congruence|]. rewrite Hd.
  destruct (parse_dec (c :: v)); [reflexivity|congruence].
Qed.
